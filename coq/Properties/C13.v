(** C13 — Exclude/include rules filter exactly the named entries.
    Plain-name rules; the sender's recursive walk. *)
From Coq Require Import ZArith List Bool.
From RV Require Import Model.Tree Proofs.TreeProofs.
Import ListNotations.
Open Scope Z_scope.

(** An entry is left out iff the first rule matching its name — or the name
    of one of the directories above it — is an exclude rule: every selected
    name exists and has no excluded component ([allowed]); every existing
    entry without an excluded component is selected (later siblings of an
    excluded file and names matched by an include rule included). *)
Theorem filter_exact_sound :
  forall rules fuel t q,
    In q (select rules fuel [] t) ->
    exists p, p <> [] /\ q = p /\ path_in t p /\ allowed rules [] p = true.
Proof.
  intros rules fuel t q Hin.
  destruct (select_sound rules fuel [] t q Hin) as (p & Hne & E & Hp & Ha).
  exists p. cbn in E. auto.
Qed.

Theorem filter_exact_complete :
  forall rules t p node,
    p <> [] -> lookup t p = Some node -> allowed rules [] p = true ->
    In p (select rules (depth t) [] t).
Proof.
  intros rules t p node Hne Hl Ha.
  exact (select_complete rules p (depth t) [] t (le_n _) Hne (lookup_path_in _ _ _ Hl) Ha).
Qed.

(** "excluded" is decided by the first matching rule. *)
Theorem first_match_decides :
  forall rs p,
    excluded rs p = true <->
    exists pre r post, rs = pre ++ r :: post /\ Forall (fun x => rule_matches x p = false) pre /\
                       rule_matches r p = true /\ r_include r = false.
Proof.
  intros rs p. split.
  - induction rs as [|r rs IH]; cbn [excluded]; [discriminate|].
    destruct (rule_matches r p) eqn:Em.
    + intros Hi%negb_true_iff. exists [], r, rs. auto.
    + intros (pre & r' & post & -> & Hpre & Hm)%IH. exists (r :: pre), r', post. auto.
  - intros (pre & r & post & -> & Hpre & Hm & Hi).
    induction Hpre as [|x pre Hx _ IH]; cbn [app excluded]; [now rewrite Hm, Hi|now rewrite Hx].
Qed.

(** Rule syntax that cannot be honoured (wildcards) is an error. *)
Theorem wildcard_is_error :
  forall lines,
    (check_rules lines = None <-> exists l, In l lines /\ r_wild (parse_rule l) = true) /\
    (forall rs, check_rules lines = Some rs ->
       rs = map parse_rule lines /\ Forall (fun r => existsb is_wild_char (r_pattern r) = false) rs).
Proof. intros lines. split; [exact (check_rules_none lines)|exact (check_rules_some lines)]. Qed.

(** Non-vacuity: excluding file "m" keeps its later sibling "z"; an include
    rule in front protects "d/m". *)
Definition ex_t : ftree :=
  TDir [([97], TFile); ([100], TDir [([109], TFile); ([122], TFile)]); ([109], TFile); ([122], TFile)].
Example exclude_file_keeps_siblings :
  select_all [parse_rule [45; 32; 109]] ex_t = [[]; [[97]]; [[100]]; [[100]; [122]]; [[122]]].
Proof. vm_compute. reflexivity. Qed.
Example include_first :
  select_all [parse_rule [43; 32; 100; 47; 109]; parse_rule [45; 32; 109]] ex_t
  = [[]; [[97]]; [[100]]; [[100]; [109]]; [[100]; [122]]; [[122]]].
Proof. vm_compute. reflexivity. Qed.
Example wildcard_rejected : check_rules [[45; 32; 98; 42; 120]] = None.
Proof. vm_compute. reflexivity. Qed.

Print Assumptions filter_exact_sound.
Print Assumptions filter_exact_complete.
Print Assumptions first_match_decides.
Print Assumptions wildcard_is_error.

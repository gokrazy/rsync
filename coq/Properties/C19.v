(** C19 — Module access control follows first-match allow/deny. *)
From Coq Require Import ZArith List Bool.
From RV Require Import Model.Acl Proofs.AclProofs.
Import ListNotations.
Open Scope Z_scope.

(** Access is granted exactly when every rule is stepped over (no rule's
    network contains the address and none is malformed), or the first rule
    that is not stepped over is a well-formed [Allow] whose network contains
    the address.  Unbounded rule lists, all addresses. *)
Theorem acl_first_match : forall rs a,
  eval_rules rs a = Granted <->
  Forall (skips a) rs \/
  exists pre w post, rs = pre ++ Rule Allow w :: post /\
                     Forall (skips a) pre /\ matches w a = true.
Proof. exact (fun rs a => eval_rules_iff a rs Granted). Qed.

Theorem acl_first_match_deny : forall rs a,
  eval_rules rs a = Denied <->
  exists pre w post, rs = pre ++ Rule Deny w :: post /\
                     Forall (skips a) pre /\ matches w a = true.
Proof. exact (fun rs a => eval_rules_iff a rs Denied). Qed.

(** Reaching a malformed rule denies, whatever follows it. *)
Theorem acl_malformed_denies : forall rs a,
  eval_rules rs a = DeniedMalformed <->
  exists pre post, rs = pre ++ Malformed :: post /\ Forall (skips a) pre.
Proof. exact (fun rs a => eval_rules_iff a rs DeniedMalformed). Qed.

(** On any verdict but [Granted] the reply is an error line and the session
    does not continue to the transfer stages (no module data). *)
Theorem acl_denied_no_data : forall rs remote,
  (snd (acl_stage rs remote) = true <-> check_acl rs remote = Granted) /\
  (fst (acl_stage rs remote) = ReplyOk <-> check_acl rs remote = Granted).
Proof. intros. unfold acl_stage. destruct (check_acl rs remote); cbn [fst snd]; split; split; congruence. Qed.

(** "Network contains address" is interval membership for masked bases,
    for both address widths. *)
Theorem acl_prefix_is_interval : forall width base plen a,
  0 <= plen <= width -> 0 <= a -> 0 <= base ->
  base mod 2 ^ (width - plen) = 0 ->
  in_prefix width base plen a = true <-> base <= a < base + 2 ^ (width - plen).
Proof. intros width base plen a Hp _ _. now apply in_prefix_spec. Qed.

(** Non-vacuity: concrete lists meeting each side. 10.0.0.0/8 = 167772160. *)
Example acl_ex_grant :
  eval_rules [Rule Deny (WNet4 3232235520 16); Rule Allow (WNet4 167772160 8); Rule Deny WAll]
             (V4 167772161) = Granted.
Proof. vm_compute. reflexivity. Qed.
Example acl_ex_deny :
  eval_rules [Rule Allow (WNet4 167772160 8); Rule Deny WAll] (V6 1) = Denied.
Proof. vm_compute. reflexivity. Qed.
Example acl_ex_malformed :
  eval_rules [Rule Allow (WNet4 167772160 8); Malformed; Rule Allow WAll] (V4 1) = DeniedMalformed.
Proof. vm_compute. reflexivity. Qed.
Example acl_ex_skips : skips (V4 1) (Rule Allow (WNet4 167772160 8)).
Proof. exists Allow, (WNet4 167772160 8). split; [reflexivity|vm_compute; reflexivity]. Qed.

(** An IPv4-mapped network given in IPv6 syntax matches IPv4 peers. *)
Example acl_ex_mapped :
  eval_rules [Rule Deny (WNet6 281470849515520 104)] (V4 167772161) = Denied.
Proof. vm_compute. reflexivity. Qed.

Print Assumptions acl_first_match.
Print Assumptions acl_first_match_deny.
Print Assumptions acl_malformed_denies.
Print Assumptions acl_denied_no_data.
Print Assumptions acl_prefix_is_interval.

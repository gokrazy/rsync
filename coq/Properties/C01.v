(** C01 — A successful sync leaves destination files byte-identical to the
    source.

    What is a theorem: for ONE file, the complete pipeline — the generator's
    request computed from whatever the destination path holds (nothing, or
    any existing file used as delta basis, including an emptied / truncated /
    extended / unrelated one), the sender's hash search over the source, the
    receiver's reconstruction and checksum verification — succeeds and
    commits exactly the source bytes, for all contents and sizes below 2^40;
    and the update rule that decides whether the pipeline runs at all (C12).
    [sync_session_correct] lifts this to a whole file list over a destination
    state (each listed, requested file ends equal to its source, every other
    path is untouched).
    The names a serving daemon gives the selected files — which, joined to
    the destination, are the paths the receiver writes — are covered by
    [every_object_under_the_requested_root_is_listed],
    [contents_of_a_directory_requested_with_a_slash],
    [directory_requested_with_a_slash_lands_its_contents_directly],
    [path_requested_without_a_slash_keeps_its_module_relative_name] and
    [other_requests_keep_the_module_relative_path] (model: Model/Serve.v,
    tied to the real daemon by the serve component and to the destination
    tree by the sync component).
    The client's own source arguments (push / local copy: an absolute path is
    split into filepath.Dir and filepath.Base before the same walk runs) are
    covered by [client_source_without_a_slash_is_named_by_its_last_element]
    and [client_source_with_a_slash_lands_its_contents_directly] (model
    client_names, tied to the real SendFileList by component clientnames).
    filepath.Clean / Dir / Base are modelled ([path_clean], [path_dir],
    [path_base]) and compared with the real ones through those components;
    relative source arguments are made absolute by the client before
    (os.Getwd, not modelled).
    KNOWN FINDING visible in [mapping_examples]: a nested path requested
    *without* trailing slash (module/d/e) keeps its whole module-relative
    path (d/e/...) where rsync names it by its last element (e/...). *)
From Coq Require Import ZArith List Bool Lia.
From Coq Require Import String.
From RV Require Import Model.Bytes Model.Md4 Model.Checksum Model.Delta Model.Sender Model.Generator
     Model.Flist Model.Tree Model.Serve
     Proofs.BytesProofs Proofs.ChecksumProofs Proofs.SenderProofs Proofs.SearchInv Proofs.GeneratorProofs Proofs.TreeSyncProofs
     Proofs.ServeProofs.
Import ListNotations.
Open Scope Z_scope.

(** The only escape is an explicit collision between a window of the source
    and a *different* block of the old destination file under the 16-byte
    strong checksum ([no_collision], a statement about these strings). *)
Theorem sync_file_correct :
  forall (H : list Z -> list Z) seed chunk src dst,
    (forall x, lenZ (H x) = 16) -> 1 <= chunk < 2147483648 ->
    lenZ src < 1099511627776 ->
    match dst with
    | Some b => lenZ b < 1099511627776 /\ no_collision H seed b (fst (gen_sums H seed b)) src
    | None => True
    end ->
    file_transfer H seed chunk src dst = Commit src.
Proof.
  intros H seed chunk src dst H16 Hc. exact (file_transfer_correct H seed chunk H16 Hc src dst).
Qed.

(** Transfers in this domain succeed rather than fail: the sender never
    crashes or stalls, for any checksum list a generator can produce. *)
Theorem sync_sender_succeeds :
  forall (H : list Z -> list Z) seed chunk src b,
    1 <= chunk ->
    exists h' toks tr,
      send_one H seed chunk (fst (gen_sums H seed b)) (snd (gen_sums H seed b)) src = SOk h' toks tr.
Proof.
  intros H seed chunk src b Hc. destruct (regular_sqroot (lenZ b)) as [(Hb & _ & Hr) _].
  destruct (send_one_covers H seed chunk Hc (fst (gen_sums H seed b)) (snd (gen_sums H seed b)) src)
    as (h' & rt & E & _); [|eauto].
  (* the generator's header has a block length of at least 1 and a remainder of at least 0 *)
  intros _. split; [exact Hb|]. cbn [gen_sums fst]. rewrite Hr. apply Z.mod_pos_bound. lia.
Qed.

(** A whole session: the file list is any list of (name, source content)
    with distinct names, the destination any assignment of contents to paths,
    [requested] the update rule's verdict per file (C12).  After the session
    every requested file holds exactly the source's bytes; every other path —
    listed but not requested, or not listed at all — is as it was.  The side
    condition [file_ok] is the one of [sync_file_correct], taken against the
    destination as it was before the session. *)
Theorem sync_session_correct :
  forall (H : list Z -> list Z) seed chunk (requested : fname -> bool),
    (forall x, lenZ (H x) = 16) -> 1 <= chunk < 2147483648 ->
    forall files d,
      NoDup (map fst files) ->
      (forall nc, In nc files -> requested (fst nc) = true -> file_ok H seed d nc) ->
      (forall n c, In (n, c) files -> requested n = true -> sync_all H seed chunk requested files d n = Some c) /\
      (forall n c, In (n, c) files -> requested n = false -> sync_all H seed chunk requested files d n = d n) /\
      (forall m, ~ In m (map fst files) -> sync_all H seed chunk requested files d m = d m).
Proof.
  intros H seed chunk requested H16 Hc files d ND OK.
  split; [|split; [|apply sync_all_unlisted]]; intros n c Hin Hr;
    rewrite (sync_all_at H seed chunk requested files d n c ND Hin), sync_step_self, Hr.
  - destruct (OK _ Hin Hr) as [Hs Hb]. now rewrite (file_transfer_correct H seed chunk H16 Hc c (d n) Hs Hb).
  - reflexivity.
Qed.

(** Non-vacuity, under MD4: a file that became empty over a non-empty copy
    (the case that used to crash the sender), and an edited copy. *)
Example emptied_file : file_transfer md4 9 262144 [] (Some [1; 2; 3; 4; 5]) = Commit [].
Proof. vm_compute. reflexivity. Qed.
Example edited_copy :
  file_transfer md4 9 262144 [7; 1; 2; 3; 250] (Some [1; 2; 3]) = Commit [7; 1; 2; 3; 250].
Proof. vm_compute. reflexivity. Qed.
Example new_file : file_transfer md4 9 262144 [0; 255] None = Commit [0; 255].
Proof. vm_compute. reflexivity. Qed.

(** Everything that exists under the requested root is in the file list. *)
Theorem every_object_under_the_requested_root_is_listed :
  forall t req sub rel node,
    valid_path (walk_root req) = true ->
    lookup t (comps_of (walk_root req)) = Some sub -> lookup sub rel = Some node ->
    In (comps_of (walk_root req) ++ rel) (serve_paths t req).
Proof. exact serve_complete. Qed.

(** A directory requested with a trailing slash (the strip prefix is its path
    followed by a slash): its contents are named by their path relative to
    it, so they land directly under the destination; the directory itself is
    ".". *)
Theorem contents_of_a_directory_requested_with_a_slash :
  forall p0 rel, p0 <> [] -> wire_name (render p0 ++ [slash]) (p0 ++ rel) = render rel.
Proof. exact wire_name_contents. Qed.

(** The same for the request as the daemon receives it, "/c1/.../ck/" with
    ordinary components (no slash inside, none empty, "." or ".."): whatever
    exists under that directory is listed under its path relative to it —
    filepath.Clean, the strip prefix and the walk root included. *)
Theorem directory_requested_with_a_slash_lands_its_contents_directly :
  forall p0, p0 <> [] -> Forall (fun c => good_comp c = true) p0 ->
  forall t sub rel node, lookup t p0 = Some sub -> lookup sub rel = Some node ->
    In (render rel) (serve_names t (slash :: render_from p0 ++ [slash])).
Proof.
  intros p0 Hne G t sub rel node L Lr.
  rewrite <- (wire_name_contents p0 rel Hne), <- (get_strip_dir p0 Hne G).
  exact (names_listed t _ p0 sub rel node G (proj2 (walk_root_abs p0 G)) L Lr).
Qed.

(** "/c1/.../ck" without trailing slash: listed under the module-relative
    path.  For k = 1 this is rsync's naming (the directory's own name, then the
    relative path); for k > 1 rsync names by ck alone — the known finding. *)
Theorem path_requested_without_a_slash_keeps_its_module_relative_name :
  forall p0, p0 <> [] -> Forall (fun c => good_comp c = true) p0 ->
  forall t sub rel node, lookup t p0 = Some sub -> lookup sub rel = Some node ->
    In (render (p0 ++ rel)) (serve_names t (slash :: render_from p0)).
Proof.
  intros p0 Hne G t sub rel node.
  exact (names_listed_whole t _ p0 sub rel node G (proj1 (walk_root_abs p0 G)) (no_suffix_slash p0 [slash] Hne G)).
Qed.

(** The client as sender (push, local copy): the absolute source path
    "/pre/c" is split into the directory to open and the last element, and is
    named c, c/... — rsync's naming, for every depth of pre. *)
Theorem client_source_without_a_slash_is_named_by_its_last_element :
  forall pre c, Forall (fun x => good_comp x = true) pre -> good_comp c = true ->
  forall t cs rel node,
    lookup t pre = Some (TDir cs) -> lookup (TDir cs) (c :: rel) = Some node ->
    In (render (c :: rel)) (client_names t (slash :: render_from (pre ++ [c]))).
Proof.
  intros pre c Hpre Hc t cs rel node L Lr.
  rewrite (client_names_open t _ _ _ pre cs (client_split_abs pre c Hpre Hc) Hpre (proj1 (walk_root_abs pre Hpre)) L).
  (* inside the opened directory the request is the relative path "c" *)
  assert (Gc : Forall (fun x => good_comp x = true) [c]) by auto.
  cbn [lookup] in Lr. destruct (assoc_name c cs) as [u|] eqn:Ec; [|discriminate].
  apply (names_listed_whole (TDir cs) c [c] u rel node Gc); [| | |exact Lr].
  - apply (walk_root_rel [c]); [discriminate|exact Gc].
  - apply has_suffix_slash_noslash. now apply andb_true_iff in Hc.
  - cbn [lookup]. now rewrite Ec.
Qed.

(** ... and "/pre/c/" lands the contents of c directly under the destination. *)
Theorem client_source_with_a_slash_lands_its_contents_directly :
  forall pre c, Forall (fun x => good_comp x = true) pre -> good_comp c = true ->
  forall t cs rel node,
    lookup t (pre ++ [c]) = Some (TDir cs) -> lookup (TDir cs) rel = Some node ->
    In (render rel) (client_names t ((slash :: render_from (pre ++ [c])) ++ [slash])).
Proof.
  intros pre c Hpre Hc t cs rel node L Lr.
  assert (G : Forall (fun x => good_comp x = true) (pre ++ [c])) by (apply Forall_app; auto).
  rewrite (client_names_open t _ _ _ _ cs (client_split_slash (slash :: _)) G (proj2 (walk_root_abs _ G)) L).
  (* inside the opened directory the request is "/" *)
  exact (names_listed (TDir cs) [slash] [] _ rel node (Forall_nil _) eq_refl eq_refl Lr).
Qed.

(** Any other request: the module-relative path. *)
Theorem other_requests_keep_the_module_relative_path :
  forall p, wire_name [] p = render p.
Proof. reflexivity. Qed.

Definition s2l (s : string) : list Z := map (fun a => Z.of_nat (Ascii.nat_of_ascii a)) (list_ascii_of_string s).
Definition map_t : ftree :=
  TDir [(s2l "a.txt", TFile); (s2l "d", TDir [(s2l "b.txt", TFile); (s2l "e", TDir [(s2l "x", TFile)])])].
Example mapping_examples :
  daemon_serve (s2l "mod") map_t [s2l "mod/d/"] = [s2l "."; s2l "b.txt"; s2l "e"; s2l "e/x"] /\
  daemon_serve (s2l "mod") map_t [s2l "mod/d/e/"] = [s2l "."; s2l "x"] /\
  daemon_serve (s2l "mod") map_t [s2l "mod/d"] = [s2l "d"; s2l "d/b.txt"; s2l "d/e"; s2l "d/e/x"] /\
  daemon_serve (s2l "mod") map_t [s2l "mod/d/e"] = [s2l "d/e"; s2l "d/e/x"] /\
  get_strip (s2l "/d/e/") = render [s2l "d"; s2l "e"] ++ [slash] /\
  comps_of (walk_root (s2l "/d/e/")) = [s2l "d"; s2l "e"].
Proof. vm_compute. repeat split; reflexivity. Qed.

Print Assumptions sync_file_correct.
Print Assumptions sync_sender_succeeds.
Print Assumptions sync_session_correct.
Print Assumptions every_object_under_the_requested_root_is_listed.
Print Assumptions contents_of_a_directory_requested_with_a_slash.
Print Assumptions other_requests_keep_the_module_relative_path.
Print Assumptions directory_requested_with_a_slash_lands_its_contents_directly.
Print Assumptions path_requested_without_a_slash_keeps_its_module_relative_name.
Print Assumptions client_source_without_a_slash_is_named_by_its_last_element.
Print Assumptions client_source_with_a_slash_lands_its_contents_directly.

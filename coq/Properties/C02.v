(** C02 — Delta encoding and decoding are exact for every basis, target and
    block layout.  [H] is an arbitrary strong hash (MD4 in the code),
    [seed] any seed, [chunk] any positive literal chunk size. *)
From Coq Require Import ZArith List Bool Lia FMapPositive.
From RV Require Import Model.Bytes Model.Md4 Model.Checksum Model.Delta Model.Sender
     Proofs.BytesProofs Proofs.ChecksumProofs Proofs.DeltaProofs Proofs.TileProofs Proofs.SenderProofs Proofs.SearchInv Proofs.GeneratorProofs.
Import ListNotations.
Open Scope Z_scope.

(** Sender half.  For every basis, every block layout with block length >= 1
    whose strong sums were computed over that basis (any strong length), and
    every source file: if the sender completes, its token stream applied to
    the basis is the source file and the trailer is the whole-file sum —
    provided no window of the source collides with a *different* basis block
    under the truncated strong sum ([no_collision]: a statement about these
    specific strings; for 16-byte sums an MD4 collision). *)
Theorem sender_exact :
  forall (H : list Z -> list Z) (seed chunk : Z) (basis : list Z) (h : sum_head)
         (sums : list sumbuf) (target : list Z) h' toks tr,
    1 <= chunk -> 1 <= h_blen h -> 0 <= h_rem h ->
    send_one H seed chunk h sums target = SOk h' toks tr ->
    sums_legal H seed basis h sums ->
    no_collision H seed basis h target ->
    denote basis h' toks = Some target /\ tr = filesum H seed target.
Proof.
  intros H seed chunk basis h sums target h' toks tr Hc Hb Hr E Hl Hn.
  destruct (send_one_covers H seed chunk Hc h sums target (fun _ => conj Hb Hr)) as (h1 & rt & E' & Hcov & Hh).
  rewrite E' in E. injection E as <- <- <-. split; [|reflexivity].
  destruct Hh as [(-> & _)|(_ & Hlit)].
  - exact (rcov_denote H seed chunk basis h sums target rt Hcov Hl Hn).
  - exact (rcov_denote_lits H seed chunk h sums target basis _ rt Hcov Hlit).
Qed.

(** With full-length strong sums a weak-checksum collision alone never yields
    a block reference: every reference the search emits is *justified*, i.e.
    the truncated strong sum of the window equals the listed sum of that block
    (the loop-body invariant [SInv] carries [rcov], whose [rc_ref] case demands
    [justified]). *)
Theorem match_is_strong :
  forall (H : list Z -> list Z) (seed chunk : Z) (h : sum_head) (sums : list sumbuf) (target : list Z)
         (tt : tagtable) (end_ : Z) (st : sstate),
    1 <= chunk -> 1 <= h_blen h -> end_ <= lenZ target ->
    (forall t i s1 s2, In (i, s1, s2) (tt_find tt t) ->
        0 <= i /\ nth_error sums (Z.to_nat i) = Some (s1, s2)) ->
    SInv H seed chunk h sums target st ->
    match body H seed chunk h tt (lenZ target) end_ st with
    | Done lastm' lmc' rtoks' => rcov H seed chunk h sums target rtoks' lastm' /\ lmc' = dropZ lastm' target
    | Next st' => SInv H seed chunk h sums target st'
    | Crashed _ => True
    end.
Proof.
  intros H seed chunk h sums target tt end_ st Hc Hb He Htt Hinv.
  exact (body_sound H seed chunk Hc h sums target tt end_ Htt He Hb st Hinv).
Qed.

(** Receiver half.  For any basis and any valid token stream (literal runs of
    any chunking, references in any order, repeated), the receiver writes
    exactly the bytes the stream denotes and commits iff the trailer is their
    whole-file sum; a reference outside the basis is an error. *)
Theorem receiver_exact :
  forall (H : list Z -> list Z) seed basis h ts tr rest,
    head_valid h -> Forall wf_token ts -> lenZ tr = 16 ->
    match denote basis h ts with
    | Some d =>
        receive_data H seed (Some basis) (enc_head h ++ enc_tokens ts ++ le32 0 ++ tr ++ rest) =
        if list_eqb (filesum H seed d) tr then (Commit d, rest) else (Reject d, rest)
    | None =>
        exists r, receive_data H seed (Some basis) (enc_head h ++ enc_tokens ts ++ le32 0 ++ tr ++ rest) =
                  (RErrBasisRead, r)
    end.
Proof. exact receive_data_exact. Qed.

(** The tag table the search consults is exactly the received list grouped by
    tag, in ascending block order (no entry lost, none invented). *)
Theorem tag_table_exact :
  forall sums t, 0 <= t ->
    tt_find (tt_build sums 0 (PositiveMap.empty _)) t = entries sums 0 t.
Proof. exact tt_find_built. Qed.

(** Geometry of the signature the generator produces (SumSizesSqroot) as the
    receiver reads it back (block_len): for every basis length the blocks lie
    inside the basis, all but the last have the full block length, they are
    laid end to end, and the last one ends exactly at the end of the basis;
    an empty basis has no block.  So the layouts over which [sender_exact]
    and [receiver_exact] quantify include every layout the code generates,
    and no byte of the basis is outside the signature. *)
Theorem signature_blocks_tile_the_basis :
  forall n, 0 <= n ->
    let h := sum_sizes_sqroot n in
    (forall i, 0 <= i < h_count h ->
       1 <= block_len h i <= h_blen h /\ i * h_blen h + block_len h i <= n) /\
    (forall i, 0 <= i < h_count h - 1 -> block_len h i = h_blen h) /\
    (0 < n -> 1 <= h_count h /\
              (h_count h - 1) * h_blen h + block_len h (h_count h - 1) = n) /\
    (n = 0 -> h_count h = 0).
Proof. intros n _. apply regular_tile, regular_sqroot. Qed.

(** Every block of that signature can be read back from the unchanged basis:
    a reference to any index below the count denotes exactly [block_len]
    bytes (receiveData's ReadAt never comes up short on an unchanged basis). *)
Theorem signature_blocks_are_readable :
  forall basis i,
    let h := sum_sizes_sqroot (lenZ basis) in
    0 <= i < h_count h ->
    exists b, ref_bytes basis h i = Some b /\ lenZ b = block_len h i.
Proof. intros basis i h. apply refs_readable, regular_sqroot. Qed.

(** The blocks tile the basis: referencing every block of the generator's
    signature once, in order, denotes exactly the basis — no byte of it is
    missing from, or counted twice in, the layout both sides compute. *)
Theorem all_block_references_denote_the_basis :
  forall basis,
    let h := sum_sizes_sqroot (lenZ basis) in
    denote basis h (map (fun j => Ref (Z.of_nat j)) (seq 0 (Z.to_nat (h_count h)))) = Some basis.
Proof. intros basis h. apply denote_all_refs, regular_sqroot. Qed.

(** End to end on the receiver: a transmission that references every block of
    the generator's signature in order, followed by the whole-file sum of the
    basis, makes receiveData commit exactly the basis (any strong hash with
    16-byte output, any seed, any basis below 2^40 bytes). *)
Theorem whole_signature_reproduces_the_basis :
  forall (H : list Z -> list Z) seed basis rest,
    (forall x, lenZ (H x) = 16) -> lenZ basis < 1099511627776 ->
    let h := sum_sizes_sqroot (lenZ basis) in
    receive_data H seed (Some basis)
      (enc_head h ++ enc_tokens (map (fun j => Ref (Z.of_nat j)) (seq 0 (Z.to_nat (h_count h)))) ++
       le32 0 ++ filesum H seed basis ++ rest) = (Commit basis, rest).
Proof.
  intros H seed basis rest H16 Hlen h. pose proof (lenZ_nonneg basis).
  apply all_refs_commit; [exact H16|apply head_valid_sqroot; lia|apply regular_sqroot].
Qed.

(** Non-vacuity: 1401 bytes give two full blocks of 700 and a remainder of 1;
    490000 bytes (sqrt = 700) give exactly 700 full blocks, 1000000 bytes 1000
    blocks of 1000. *)
Example tile_example :
  sum_sizes_sqroot 1401 = mkHead 3 700 16 1 /\ block_len (sum_sizes_sqroot 1401) 2 = 1 /\
  sum_sizes_sqroot 490000 = mkHead 700 700 16 0 /\ sum_sizes_sqroot 1000000 = mkHead 1000 1000 16 0.
Proof. vm_compute. repeat split; reflexivity. Qed.

(** Non-vacuity: a 3-block basis (block length 2, remainder 1) with a
    duplicated block; the model sender under MD4 produces a mixed stream that
    denotes the target, and the hypotheses of [sender_exact] are met by it. *)
Definition ex_basis : list Z := [1; 2; 1; 2; 255].
Definition ex_head : sum_head := mkHead 3 2 16 1.
Definition ex_sums : list sumbuf :=
  map (fun i => (checksum1 (blk ex_basis ex_head i),
                 takeZ 16 (checksum2 md4 7 (blk ex_basis ex_head i)))) [0; 1; 2].
Definition ex_target : list Z := [9; 1; 2; 255; 1; 2; 7].

Example sender_example :
  exists toks tr, send_one md4 7 262144 ex_head ex_sums ex_target = SOk ex_head toks tr /\
                  denote ex_basis ex_head toks = Some ex_target /\
                  toks = [Lit [9]; Ref 0; Lit [255]; Ref 0; Lit [7]].
Proof. eexists. eexists. vm_compute. repeat split; reflexivity. Qed.

Example receiver_example :
  receive_data md4 7 (Some ex_basis)
    (enc_head ex_head ++ enc_tokens [Ref 2; Lit [5; 6]; Ref 0; Ref 0] ++ le32 0 ++
     filesum md4 7 [255; 5; 6; 1; 2; 1; 2] ++ [42]) = (Commit [255; 5; 6; 1; 2; 1; 2], [42]).
Proof. vm_compute. reflexivity. Qed.

Print Assumptions sender_exact.
Print Assumptions match_is_strong.
Print Assumptions receiver_exact.
Print Assumptions tag_table_exact.
Print Assumptions signature_blocks_tile_the_basis.
Print Assumptions signature_blocks_are_readable.
Print Assumptions all_block_references_denote_the_basis.
Print Assumptions whole_signature_reproduces_the_basis.

(** C18 — sessions terminate under any interleaving.  [step cap_a cap_b] is one scheduling
    step of the generator / sender / receiver pipeline over two transports of
    capacity [cap_a] (requests) and [cap_b] (file data), byte by byte; the
    scheduler is unconstrained: any enabled step may be taken next.
    Capacities range over all naturals, 0 being a rendezvous pipe.  The
    request and answer sizes of every file are arbitrary ([plan]), so mixes
    of many tiny files, huge literals and huge checksum lists are all
    instances. *)
From Coq Require Import List Lia.
From RV Require Import Model.Pipeline Proofs.PipelineProofs.
Import ListNotations.

(** After any number of steps of any schedule the pipeline has finished or
    can still move: there is no deadlock between checksum generation, sending
    and receiving — and no schedule is longer than the initial amount of work. *)
Theorem no_deadlock_for_any_capacity_and_schedule :
  forall cap_a cap_b plan n st,
    Forall (fun p => 1 <= fst p) plan ->
    steps cap_a cap_b n (init plan) st ->
    n <= measure (init plan) /\ (final st \/ exists st', step cap_a cap_b st st').
Proof. intros ca cb plan n st F. apply no_deadlock, inv_init, F. Qed.

(** A schedule that cannot be extended has delivered every request and every
    answer. *)
Theorem maximal_schedules_deliver_everything :
  forall cap_a cap_b plan n st,
    Forall (fun p => 1 <= fst p) plan ->
    steps cap_a cap_b n (init plan) st -> (forall st', ~ step cap_a cap_b st st') -> final st.
Proof.
  intros ca cb plan n st F S M.
  destruct (no_deadlock ca cb n _ st (inv_init plan F) S) as [_ [Fi|[st' St]]]; [exact Fi|].
  now apply M in St.
Qed.

Theorem every_step_reduces_the_remaining_work :
  forall cap_a cap_b st st', step cap_a cap_b st st' -> measure st' < measure st.
Proof. exact measure_decreases. Qed.

(** Non-vacuity: over two rendezvous pipes, a 2-byte request answered by 1
    byte of data completes in a concrete schedule. *)
Example rendezvous_run :
  exists st, steps 0 0 3 (init [(2, 1)]) st /\ final st.
Proof.
  eexists. split.
  - eapply steps_S. { apply gen_rendezvous; cbn; try lia; try reflexivity; discriminate. }
    eapply steps_S. { apply gen_rendezvous; cbn; try lia; try reflexivity; discriminate. }
    eapply steps_S. { apply snd_rendezvous; cbn; try lia; reflexivity. }
    apply steps_0.
  - cbn. unfold final. cbn. repeat split.
Qed.

Print Assumptions no_deadlock_for_any_capacity_and_schedule.
Print Assumptions maximal_schedules_deliver_everything.
Print Assumptions every_step_reduces_the_remaining_work.

(** C07 — read-only modules are never modified.  [daemon_request] is the
    daemon's handling of one connection up to the start of a transfer, for any
    module table, requested module line and flag lines (parsed by the model of
    the real option parser); [DReceiver] is the only outcome in which the
    receiving code (and with it any file-system write) runs. *)
From Coq Require Import ZArith String List Bool.
From RV Require Import Model.Popt Model.Daemon Proofs.ConfineProofs Gen.FsSites.
Import ListNotations.
Open Scope string_scope.

Lemma get_module_spec mods name m :
  get_module mods name = Some m -> In m mods /\ m_name m = name.
Proof.
  induction mods as [|x mods IH]; [discriminate|]. cbn [get_module].
  destruct (String.eqb (m_name x) name) eqn:E.
  - intros H. injection H as <-. split; [now left|now apply String.eqb_eq].
  - intros H. destruct (IH H) as [I N]. split; [now right|exact N].
Qed.

(** Whatever the client sends — any module line, any flag lines — the daemon
    starts receiving only into the module that was requested by name, and
    only if that module is configured writable. *)
Theorem only_writable_modules_receive :
  forall mods requested acl flags m paths,
    daemon_request mods requested acl flags = DReceiver m paths ->
    In m mods /\ m_name m = requested /\ m_writable m = true /\ acl = true /\
    exists st, parse_arguments flags = inl st /\ (getf st "am_sender" =? 0)%Z = true.
Proof.
  (* [DReceiver] stands behind a chain of tests: each is passed, or the outcome is another one *)
  intros mods requested acl flags m paths. unfold daemon_request.
  destruct (String.eqb requested "" || String.eqb requested "#list"); [discriminate|].
  destruct (get_module mods requested) as [m0|] eqn:G; [|discriminate].
  destruct acl; cbn [negb]; [|discriminate].
  destruct (parse_arguments flags) as [st|e] eqn:P; [|discriminate].
  destruct (o_remaining st) as [|dot [|p ps]]; try discriminate.
  destruct (String.eqb dot "."); cbn [negb]; [|discriminate].
  destruct (getf st "am_sender" =? 0)%Z eqn:S; cbn [negb]; [|discriminate].
  destruct (m_writable m0) eqn:W; [|discriminate].
  intros H. injection H as <- _. destruct (get_module_spec _ _ _ G) as [I N].
  repeat split; try assumption. exists st. auto.
Qed.

Theorem writes_imply_writable :
  forall mods requested acl flags,
    writes (daemon_request mods requested acl flags) = true ->
    exists m, In m mods /\ m_name m = requested /\ m_writable m = true.
Proof.
  intros mods requested acl flags H.
  destruct (daemon_request mods requested acl flags) eqn:E; try discriminate.
  destruct (only_writable_modules_receive _ _ _ _ _ _ E) as (I & N & W & _). eauto.
Qed.

(** Every receive-mode request for a read-only module is refused (with the
    "module is read only" error), for all flag sets. *)
Theorem readonly_module_refuses_uploads :
  forall mods requested flags m st p ps,
    get_module mods requested = Some m -> m_writable m = false ->
    requested <> "" -> requested <> "#list" ->
    parse_arguments flags = inl st -> (getf st "am_sender" =? 0)%Z = true ->
    o_remaining st = "." :: p :: ps ->
    daemon_request mods requested true flags = DRefusedReadOnly m.
Proof.
  intros mods requested flags m st p ps G W N1%String.eqb_neq N2%String.eqb_neq P S R.
  unfold daemon_request. rewrite N1, N2, G, P, R.
  cbn [String.eqb Ascii.eqb Bool.eqb negb andb]. now rewrite S, W.
Qed.

(** In the source, the Writable check of the receive handler precedes every
    file-system call of that handler (inventory regenerated on every run) ... *)
Theorem refusal_precedes_any_fs_call :
  existsb is_guard (before_first_fs (filter in_recv_handler fs_sites)) = true.
Proof. vm_compute. reflexivity. Qed.

(** ... and the sending side, which serves read-only modules, has no
    modifying call at all: it opens, reads links and walks, through its
    source. *)
Theorem sender_only_reads :
  forallb sender_site_ok sender_fs_sites = true.
Proof. exact sender_inventory_ok. Qed.

(** Non-vacuity: the same upload request is accepted for a writable module
    and refused for a read-only one; a pull is served by both. *)
Definition ex_mods : list dmodule := [mkMod "ro" false; mkMod "rw" true].
Example upload_ro : daemon_request ex_mods "ro" true ["--server"; "-r"; "--delete"; "."; "ro/"] = DRefusedReadOnly (mkMod "ro" false).
Proof. vm_compute. reflexivity. Qed.
Example upload_rw : writes (daemon_request ex_mods "rw" true ["--server"; "-r"; "--delete"; "."; "rw/"]) = true.
Proof. vm_compute. reflexivity. Qed.
Example pull_ro : daemon_request ex_mods "ro" true ["--server"; "--sender"; "-r"; "."; "ro/"] = DSender (mkMod "ro" false) ["/"].
Proof. vm_compute. reflexivity. Qed.

Print Assumptions only_writable_modules_receive.
Print Assumptions writes_imply_writable.
Print Assumptions readonly_module_refuses_uploads.
Print Assumptions refusal_precedes_any_fs_call.
Print Assumptions sender_only_reads.

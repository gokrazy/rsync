(** C10 — a dry run changes nothing.  The
    receiving side's file-system effects are the operation lists of Model/GenOps.v
    (generator, receiver commit, directory touch-up) plus the delete walk of
    Model/Tree.v; the sender's output is Model/Session.v. *)
From Coq Require Import ZArith List Bool.
From RV Require Import Model.Bytes Model.Flist Model.Tree Model.GenOps Model.Session
  Proofs.GenOpsProofs Proofs.TreeProofs Gen.Consts.
Import ListNotations.
Open Scope Z_scope.

(** With -n, a whole receiving session — any file list, any destination
    state (whatever Lstat returns for each entry), any verdict of the update
    rule, any option subset — issues no file-system operation at all:
    nothing is created, removed, renamed, re-permissioned, re-owned or
    re-timed. *)
Theorem dry_run_no_fs_operation :
  forall o now ws, g_dry o = true -> receiver_session_ops o now ws = [].
Proof. intros o now ws D. apply (dry_nil o _ D), session_ops_all. auto. Qed.

(** ... so every destination path keeps its state, entry by entry ... *)
Theorem dry_run_entry_unchanged :
  forall Hplain o ac it e now s, g_dry o = true -> fst (entry_step Hplain o ac it e now s) = s.
Proof.
  intros Hplain o ac it e now s D. unfold entry_step.
  destruct (dry_gen_entry' o e (lstat_of s) (skip_of Hplain ac it e s) now D) as [rq [-> _]].
  destruct rq, s; cbn [run_ops fold_left fst]; rewrite ?dry_touch_up by exact D; reflexivity.
Qed.

(** ... the session is not aborted by the generator (no entry errors) ... *)
Theorem dry_run_completes :
  forall o e dst skip now, g_dry o = true -> snd (gen_entry' o e dst skip now) <> ReqError.
Proof. intros o e dst skip now D. now destruct (dry_gen_entry' o e dst skip now D) as [rq [-> N]]. Qed.

(** ... and --delete removes nothing. *)
Theorem dry_run_deletes_nothing :
  forall (listed protected : path -> bool) has_top ioerrors t,
    delete_files listed protected has_top ioerrors true t = t.
Proof. exact delete_files_dry. Qed.

(** The generator requests files by bare index: no block checksums are sent. *)
Theorem dry_run_requests_are_bare :
  forall H seed o idx rq s, g_dry o = true ->
    gen_wire H seed o idx rq s = [] \/ gen_wire H seed o idx rq s = le32 idx.
Proof. intros H seed o idx rq s D. unfold gen_wire. rewrite D. destruct rq; auto; right; apply app_nil_r. Qed.

(** The sender transmits no file data: what it writes is exactly the bytes
    it read (the echoed indices and the two end-of-phase markers), whatever
    the files contain ... *)
Theorem dry_run_sender_echoes :
  forall H seed chunk files s out rest, bytesb s = true ->
    run_sender_session H seed chunk true files s = SessDone out rest -> s = out ++ rest.
Proof.
  intros H seed chunk files s out rest B E. unfold run_sender_session in E.
  destruct (dry_sender_echo H seed chunk _ _ _ _ _ _ _ B E) as [c [E1 E2]]. now subst.
Qed.
(** ... and independent of them. *)
Theorem dry_run_sender_ignores_files :
  forall H seed chunk files files' s,
    run_sender_session H seed chunk true files s = run_sender_session H seed chunk true files' s.
Proof. intros. unfold run_sender_session. apply dry_sender_files_irrelevant. Qed.

(** Non-vacuity: the same entry against the same destination does change it
    without -n (a symlink replaces a regular file). *)
Definition ex_opts (dry : bool) : gopts := mkG dry true true true true true false false true 18.
Definition ex_entry : fentry := mkEntry [108] 0 1500000000 (c_S_IFLNK + 511) 0 0 0 [116] [].
Definition ex_prior : pstate := PNode (mkL KReg 420 1400000000 0 0 [] 0 false) [1; 2; 3].
Example wet_run_changes :
  fst (entry_step (fun _ => []) (ex_opts false) false false ex_entry 7 ex_prior) <> ex_prior /\
  fst (entry_step (fun _ => []) (ex_opts true) false false ex_entry 7 ex_prior) = ex_prior.
Proof. split; [vm_compute; discriminate | vm_compute; reflexivity]. Qed.
Example dry_sender_example :
  run_sender_session (fun _ => []) 1 262144 true [[1; 2; 3]] (le32 0 ++ le32 (-1) ++ le32 (-1)) =
  SessDone (le32 0 ++ le32 (-1) ++ le32 (-1)) [].
Proof. vm_compute. reflexivity. Qed.

Print Assumptions dry_run_no_fs_operation.
Print Assumptions dry_run_entry_unchanged.
Print Assumptions dry_run_completes.
Print Assumptions dry_run_deletes_nothing.
Print Assumptions dry_run_requests_are_bare.
Print Assumptions dry_run_sender_echoes.
Print Assumptions dry_run_sender_ignores_files.

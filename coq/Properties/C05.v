(** C05 — a receiver never touches anything outside its destination
    directory.  Three
    layers: (1) in the model, every file-system operation of a receiving
    session names a path taken from the file list and is root-relative by
    construction; (2) the inventory of file-system call sites in the
    receiving side's source (Gen/FsSites.v, regenerated from /repo on every
    run) consists of os.Root methods, handle methods, pure path functions,
    helpers that are given the root, and a fixed list of directory-fd-relative
    calls — nothing else; (3) os.Root's own confinement is a hypothesis of
    [session_confined_given_root], exercised by the hostile-file-list matrix
    of the harness, and is proved of the resolution model of Model/Root.v in
    [root_resolution_stays_inside]. *)
From Coq Require Import ZArith String List Bool.
From RV Require Import Proofs.GenOpsProofs Model.Flist Model.GenOps Model.Root Proofs.ConfineProofs Proofs.RootProofs Gen.FsSites.
Import ListNotations.

(** (1) Whatever the file list, destination state and options: each
    operation issued acts on the root-relative name of a listed entry. *)
Theorem operations_name_listed_paths_only :
  forall o now ws op,
    In op (receiver_session_ops o now ws) -> exists w, In w ws /\ op_path op = e_name (w_entry w).
Proof. intros o now ws. apply Forall_forall, session_ops_all. intros _ w op Hw E. now exists w. Qed.

(** Given that resolution through the root never leaves it, no operation of
    any session touches an object outside the root. *)
Theorem session_confined_given_root :
  forall (gpath : Type) (under_root : gpath -> Prop) (resolve : list Z -> option gpath),
    (forall p g, resolve p = Some g -> under_root g) ->
    forall o now ws op g,
      In op (receiver_session_ops o now ws) -> touched gpath resolve op = Some g -> under_root g.
Proof. intros gpath under_root resolve HR o now ws op g _. apply HR. Qed.

(** (2) The code has no file-system call site that builds a destination path
    by itself: every site is root-relative, handle-relative, pure, or one of
    the listed directory-fd-relative calls on a base name; socket paths are
    /proc/self/fd/<parent fd>/<base>; the daemon's subdirectory argument is
    cleaned and opened through the root. *)
Theorem every_fs_call_site_is_root_relative :
  forallb site_ok fs_sites = true /\ bind_path_ok = true /\ subdir_ok = true.
Proof. vm_compute. repeat split; reflexivity. Qed.

(** (3) os.Root itself: [root_resolve] is a model of its resolution (component
    walk, ".." stepping back in the link-expanded path reached so far, relative links spliced in, absolute links and ".."
    at the root refused, a final link followed or not per operation), checked
    against the real os.Root on random trees by the harness.  In the model a
    successful resolution — whatever the name and whatever relative,
    absolute, dangling, cyclic or ".."-laden symbolic links the tree holds —
    ends at a directory of the tree or at an entry name directly inside one. *)
Theorem root_resolution_stays_inside :
  forall t follow_last name p,
    (exists cs, t = RDir cs) -> root_resolve t follow_last name = inl p ->
    is_dir_at t p \/ exists d c, p = (d ++ [c])%list /\ is_dir_at t d.
Proof.
  intros t follow_last name p [cs ->]. apply resolve_inside. now exists cs.
Qed.

Theorem dotdot_at_the_root_is_refused :
  forall f t follow_last rest, resolve (S f) t follow_last [] (dotdot :: rest) = inr EEscapes.
Proof. reflexivity. Qed.

(** Non-vacuity: a plain-path call would be rejected by the inventory check. *)
Example plain_path_call_rejected :
  site_ok ("internal/receiver/generator.go:setPerms", "pkg", "os.Chmod", "filepath.Join(rt.Dest, f.Name), perm")%string = false.
Proof. vm_compute. reflexivity. Qed.

Print Assumptions operations_name_listed_paths_only.
Print Assumptions session_confined_given_root.
Print Assumptions every_fs_call_site_is_root_relative.
Print Assumptions root_resolution_stays_inside.

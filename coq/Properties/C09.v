(** C09 — --delete removes exactly the extraneous entries and nothing else.
    [listed] is
    membership in the sender's (sorted) file list, [protected] the user's exclude rules;
    trees of any shape, depth and fan-out. *)
From Coq Require Import ZArith List Bool.
From RV Require Import Model.Bytes Model.Flist Model.Tree Proofs.BytesProofs Proofs.TreeProofs.
Import ListNotations.
Open Scope Z_scope.

(** After the delete walk an entry exists (with its kind unchanged) exactly
    when, walking down its path, every component is named in the list — or a
    component is protected by the exclude rules, below which everything is
    kept.  Every other entry is gone, at any depth and however many there
    are.  With sender I/O errors, in a dry run, or without a top directory
    in the list, nothing at all is removed. *)
Theorem delete_exact :
  forall (listed protected : path -> bool) has_top ioerrors dry t p,
    kind_at (delete_files listed protected has_top ioerrors dry t) p =
    if (0 <? ioerrors) || dry || negb has_top then kind_at t p
    else if keeps listed protected [] p then kind_at t p else None.
Proof.
  intros listed protected has_top ioerrors dry t p. unfold delete_files.
  destruct ((0 <? ioerrors) || dry || negb has_top); [reflexivity|]. apply del_kind, le_n.
Qed.

(** Nothing that is in the sender's list (together with its ancestors) is
    ever removed. *)
Theorem delete_keeps_listed :
  forall (listed protected : path -> bool) p,
    all_listed listed [] p = true -> keeps listed protected [] p = true.
Proof. intros listed protected p. exact (all_listed_keeps listed protected p []). Qed.

Theorem no_delete_on_ioerror :
  forall (listed protected : path -> bool) has_top dry t, delete_files listed protected has_top 1 dry t = t.
Proof. reflexivity. Qed.
Theorem no_delete_in_dry_run :
  forall (listed protected : path -> bool) has_top ioerrors t, delete_files listed protected has_top ioerrors true t = t.
Proof. exact delete_files_dry. Qed.

(** findInFileList is membership by name. *)
Theorem find_is_membership :
  forall name l, find_in_list name l = true <-> exists x, In x l /\ e_name x = name.
Proof.
  intros name l. induction l as [|x r IH]; cbn [find_in_list].
  - split; [discriminate|]. intros (x & [] & _).
  - rewrite orb_true_iff, list_eqb_eq, IH. split.
    + intros [E|(y & Hy & Ey)]; [exists x; split; [now left|exact E]|exists y; split; [now right|exact Ey]].
    + intros (y & [<-|Hy] & Ey); [now left|right; eauto].
Qed.

(** Non-vacuity: two extraneous files in one directory are both removed, a
    listed sibling and a protected file stay. *)
Definition nm (s : list Z) : name := s.
Definition ex_tree : ftree :=
  TDir [([97], TFile); ([100], TDir [([107], TFile); ([120;49], TFile); ([120;50], TFile); ([122], TFile)])].
Definition ex_listed (p : path) : bool :=
  existsb (fun q => list_eqb (render q) (render p)) [[[97]]; [[100]]; [[100]; [122]]].
Definition ex_protected (p : path) : bool := list_eqb (base_name p) [107].
Example delete_example :
  delete_files ex_listed ex_protected true 0 false ex_tree =
  TDir [([97], TFile); ([100], TDir [([107], TFile); ([122], TFile)])].
Proof. vm_compute. reflexivity. Qed.

Print Assumptions delete_exact.
Print Assumptions delete_keeps_listed.
Print Assumptions no_delete_in_dry_run.

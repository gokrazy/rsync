(** C08 — malformed or hostile peer input ends only that session, with an
    error.  In the
    model every decoder is a total function whose result is success or a
    named error; the theorems below say that the "crash" results the model
    has (an out-of-range access in the sender's search loop, running out of
    buffer space in the demultiplexer, a process exit in the option parser)
    are unreachable for every byte string, and that out-of-range fields are
    errors.  The inventory of process-ending calls is regenerated from the
    source on every run. *)
From Coq Require Import ZArith String List Bool Lia.
From RV Require Import Model.Bytes Model.Checksum Model.Session Model.Mux Model.Flist Model.Popt Model.Daemon Model.Tree
  Proofs.BytesProofs Proofs.DeltaProofs Proofs.SessionProofs Proofs.MuxProofs Proofs.TreeProofs Gen.Consts Gen.AbortSites.
Import ListNotations.
Open Scope Z_scope.

(** The sender's request loop — indices, checksum headers, checksum lists,
    phase markers, in any order and with any values, truncated anywhere —
    completes or ends with one of three protocol errors; it never crashes
    (the search loop's [SCrash]) and never spins. *)
Theorem sender_survives_any_request_stream :
  forall (H : list Z -> list Z) seed chunk, 1 <= chunk ->
  forall dry files s, benign (run_sender_session H seed chunk dry files s).
Proof.
  intros H seed chunk Hc dry files s. unfold run_sender_session.
  apply sender_session_benign; [exact Hc|apply Nat.lt_succ_diag_r].
Qed.

Theorem out_of_range_index_is_an_error :
  forall (H : list Z -> list Z) seed chunk files idx rest,
    (idx < 0 \/ Z.of_nat (length files) <= idx) -> idx <> -1 ->
    -2147483648 <= idx < 2147483648 ->
    run_sender_session H seed chunk false files (le32 idx ++ rest) = SessErr [] SeIndex.
Proof.
  intros H seed chunk files idx rest Hr Hn Hb. unfold run_sender_session. cbn [sender_session].
  rewrite rd32_le32 by exact Hb. destruct (Z.eqb_spec idx (-1)); [contradiction|].
  replace ((idx <? 0) || (Z.of_nat (List.length files) <=? idx)) with true; [reflexivity|].
  symmetry. apply orb_true_iff. destruct Hr; [left; now apply Z.ltb_lt|right; now apply Z.leb_le].
Qed.

(** An accepted checksum header has every field in range. *)
Theorem accepted_header_is_in_range :
  forall s h r, read_head s = HeadOk h r ->
    (length r <= length s)%nat /\ 0 <= h_count h /\ 0 <= h_blen h /\ 0 <= h_rem h.
Proof.
  intros s h r E. destruct (read_head_ok s h r E) as ((p & -> & _) & ? & ? & _ & ?).
  rewrite app_length. repeat split; lia.
Qed.

(** Multiplex headers: whatever the frame says, the client's reader (buffer
    of clientBufioSize, from the source) never runs out of buffer space. *)
Theorem demultiplexer_never_overruns :
  forall n st, bufio_read c_clientBufioSize n st <> BCrash.
Proof. intros n st. apply bufio_read_no_crash. exact covers. Qed.

(** File-list lengths: a negative or over-long name length is an error. *)
Theorem bad_name_length_is_an_error :
  forall o flags last s l1 s1 l2 s2,
    (if has_flag flags c_XMIT_SAME_NAME then rd8 s else Some (0, s)) = Some (l1, s1) ->
    (if has_flag flags c_XMIT_LONG_NAME then rd32 s1 else rd8 s1) = Some (l2, s2) ->
    (l2 < 0 \/ c_PATH_MAX - l1 <= l2) ->
    recv_entry o flags last s = inr FOverflow.
Proof.
  intros o flags last s l1 s1 l2 s2 E1 E2 Hb. unfold recv_entry. rewrite E1, E2.
  destruct Hb as [Hb%Z.ltb_lt|Hb%Z.leb_le]; rewrite Hb; [reflexivity|now rewrite orb_true_r].
Qed.

(** Filter rules with wildcards are rejected when the list is received
    (they can never reach the matcher's panic). *)
Theorem wildcard_rules_are_rejected :
  forall lines, check_rules lines = None <-> exists l, In l lines /\ r_wild (parse_rule l) = true.
Proof. intros lines. exact (check_rules_none lines). Qed.

(** Argument lines: the parser returns a value for every list of strings —
    --help and friends included — and the daemon answers a parse error by
    ending that connection only ([DParseError] is an outcome, not an exit). *)
Open Scope string_scope.
Example help_is_a_parse_error :
  daemon_request [mkMod "mod" false] "mod" true ["--server"; "--sender"; "--help"; "."; "mod/"] = DParseError (EExit 0) /\
  daemon_request [mkMod "mod" false] "mod" true ["--server"; "--version"; "."; "mod/"] = DParseError (EExit 0) /\
  daemon_request [mkMod "mod" false] "mod" true ["--server"; "--info=help"; "."; "mod/"] = DParseError (EExit 0).
Proof. vm_compute. repeat split; reflexivity. Qed.

(** The library code contains no call that ends the process other than two
    panics, both unreachable by the theorems above (buffer space: C17's
    bound; wildcard matcher: rules with wildcards are rejected at parse). *)
Definition allowed_aborts : list (string * string) :=
  [("internal/rsyncwire/wire.go:Read", "panic"); ("internal/sender/exclude.go:matches", "panic")].
Definition abort_ok (s : string * string * string) : bool :=
  let '(w, callee, _) := s in
  existsb (fun a => String.eqb (fst a) w && String.eqb (snd a) callee) allowed_aborts.
Theorem no_process_ending_call :
  forallb abort_ok abort_sites = true /\ (30 <= abort_scanned_files)%nat.
Proof. vm_compute. split; [reflexivity|]. repeat constructor. Qed.

Print Assumptions sender_survives_any_request_stream.
Print Assumptions out_of_range_index_is_an_error.
Print Assumptions accepted_header_is_in_range.
Print Assumptions demultiplexer_never_overruns.
Print Assumptions bad_name_length_is_an_error.
Print Assumptions wildcard_rules_are_rejected.
Print Assumptions no_process_ending_call.

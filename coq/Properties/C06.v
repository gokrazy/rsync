(** C06 — a daemon discloses only what lies inside the requested module.
    [daemon_serve mname t reqs] is the list of names a serving daemon sends
    for the path arguments [reqs] (any byte strings) when the module named
    [mname] is the directory tree [t]: module-name prefix stripped, request
    made relative and cleaned, the walk started there if that is a valid
    root-relative path, names trimmed by the strip prefix.  Symbolic links are
    leaves of [t]; that resolution through the module root never follows one
    out of the module is os.Root's part (modelled in Model/Root.v, see
    [root_resolution_stays_inside] in C05) and is exercised by the harness with
    outside-pointing links and canary secrets. *)
From Coq Require Import ZArith String List Bool.
From RV Require Import Model.Bytes Model.Flist Model.Tree Model.Serve Proofs.TreeProofs Proofs.ServeProofs
  Proofs.ConfineProofs Gen.FsSites.
Import ListNotations.
Open Scope Z_scope.

(** Whatever is requested, every file-list entry is an object of the module's
    own tree. *)
Theorem listed_entries_are_inside_the_module :
  forall t req p, In p (serve_paths t req) -> path_in t p.
Proof. exact served_inside. Qed.

Theorem every_sent_name_comes_from_the_module :
  forall mname t reqs nm,
    In nm (daemon_serve mname t reqs) ->
    exists r p, In r reqs /\ In p (serve_paths t (strip_module mname r)) /\ path_in t p.
Proof.
  intros mname t reqs nm H. destruct (daemon_serve_sound mname t reqs nm H) as (r & p & Hr & Hp & _ & Hin).
  now exists r, p.
Qed.

(** Traversal attempts: if a ".." survives cleaning (module/.., module/../x,
    module//../ ...), or the requested root does not exist in the module, the
    listing is empty. *)
Theorem traversal_lists_nothing :
  forall t req, valid_path (walk_root req) = false -> serve_paths t req = [].
Proof. intros t req H. unfold serve_paths. now rewrite H. Qed.

Theorem dotdot_is_invalid :
  forall p, In [dot; dot] (split_slash p []) -> list_eqb p [dot] = false -> valid_path p = false.
Proof. intros p H _. exact (dotdot_invalid p H). Qed.

Theorem absent_root_lists_nothing :
  forall t req, lookup t (comps_of (walk_root req)) = None -> serve_paths t req = [].
Proof. intros t req H. unfold serve_paths. rewrite H. now destruct (negb _). Qed.

(** In the source, the sending side reaches the file system only through its
    source root: Open, Readlink, the walk over the root's FS (inventory
    regenerated from /repo on every run). *)
Theorem sender_reads_only_through_its_root :
  forallb sender_site_ok sender_fs_sites = true.
Proof. exact sender_inventory_ok. Qed.

(** Non-vacuity: the grammar's traversal forms on a concrete module. *)
Definition s2l (s : string) : list Z := map (fun a => Z.of_nat (Ascii.nat_of_ascii a)) (list_ascii_of_string s).
Definition ex_t : ftree := TDir [(s2l "a.txt", TFile); (s2l "d", TDir [(s2l "b.txt", TFile)]); (s2l "out", TOther)].
Example traversal_examples :
  daemon_serve (s2l "mod") ex_t [s2l "mod/.."] = [] /\
  daemon_serve (s2l "mod") ex_t [s2l "mod/../x"] = [] /\
  daemon_serve (s2l "mod") ex_t [s2l "mod//../"] = [] /\
  daemon_serve (s2l "mod") ex_t [s2l "mod/d/../../etc"] = [] /\
  daemon_serve (s2l "mod") ex_t [s2l "/etc/passwd"] = [] /\
  daemon_serve (s2l "mod") ex_t [s2l "mod/d/"] = [s2l "."; s2l "b.txt"] /\
  daemon_serve (s2l "mod") ex_t [s2l "mod/"] = [s2l "."; s2l "a.txt"; s2l "d"; s2l "d/b.txt"; s2l "out"].
Proof. vm_compute. repeat split; reflexivity. Qed.

Print Assumptions listed_entries_are_inside_the_module.
Print Assumptions every_sent_name_comes_from_the_module.
Print Assumptions traversal_lists_nothing.
Print Assumptions dotdot_is_invalid.
Print Assumptions absent_root_lists_nothing.
Print Assumptions sender_reads_only_through_its_root.

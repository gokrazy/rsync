(** C11 — requested metadata is reproduced at the destination.  [entry_step]
    is the generator pass followed by the directory touch-up pass for one
    file-list entry against one destination path in an arbitrary prior state;
    [recv_ops] is the receiver's commit of a requested file.  [wanted o e st]
    says that the Lstat [st] has the entry's type, permission bits, symlink
    target and device numbers, and — when -t / -o / -g are on (and the
    process is root) — its modification time, owner and group. *)
From Coq Require Import ZArith List Bool.
From RV Require Import Model.Flist Model.GenOps Proofs.GenOpsProofs Gen.Consts.
Import ListNotations.
Open Scope Z_scope.

(** Directories: whatever was at the path (nothing, a directory, or something
    else that could be unlinked), the entry ends as a directory with the
    source's mode, for all 512 permission values — including those without
    owner write permission, which are created writable (so that their
    contents can be received) and get their final mode in the touch-up pass. *)
Theorem directory_metadata :
  forall Hplain o ac it e now s s' rq,
    g_dry o = false -> is_dir (e_mode e) = true ->
    entry_step Hplain o ac it e now s = (s', rq) -> rq <> ReqError ->
    exists st c, s' = PNode st c /\ wanted o e st.
Proof. intros Hplain o ac it e now s s' rq D Hd. apply entry_step_wanted; [exact D|]. unfold made. now rewrite Hd. Qed.

Theorem readonly_directory_writable_while_filled :
  forall o e st0, is_dir (e_mode e) = true ->
    Z.land (l_perm (set_perms_spec o e
       (if Z.land (e_mode e) 128 =? 0 then Z.lor (e_mode e) 128 else e_mode e) st0)) 128 = 128.
Proof.
  intros o e st0 Hd%Z.eqb_eq.
  rewrite set_perms_spec_nolink by (unfold is_link; now rewrite ftype_writable, Hd).
  cbn [l_perm]. unfold perm_of. rewrite <- Z.land_assoc. change (Z.land 511 128) with 128.
  destruct (Z.eqb_spec (Z.land (e_mode e) 128) 0) as [W|N].
  - now rewrite Z.land_lor_distr_l, W.
  - now destruct (land_bit7 (e_mode e)).
Qed.

(** Symlinks with -l: target of any bytes and length. *)
Theorem symlink_metadata :
  forall Hplain o ac it e now s s' rq,
    g_dry o = false -> g_links o = true -> is_link (e_mode e) = true ->
    entry_step Hplain o ac it e now s = (s', rq) -> rq <> ReqError ->
    exists st c, s' = PNode st c /\ wanted o e st.
Proof.
  intros Hplain o ac it e now s s' rq D GL Hl. apply entry_step_wanted; [exact D|].
  unfold made. now rewrite GL, Hl, orb_true_r.
Qed.

(** Devices with --devices, fifos and sockets with --specials: type, device
    numbers, permissions, and times/owner per option; a node of another type
    or with other device numbers is replaced. *)
Theorem device_metadata :
  forall Hplain o ac it e now s s' rq,
    g_dry o = false ->
    (g_devices o && is_dev (e_mode e)) || (g_specials o && is_special (e_mode e)) = true ->
    entry_step Hplain o ac it e now s = (s', rq) -> rq <> ReqError ->
    exists st c, s' = PNode st c /\ wanted o e st.
Proof.
  intros Hplain o ac it e now s s' rq D Hh. apply entry_step_wanted; [exact D|].
  unfold made. now rewrite Hh, orb_true_r.
Qed.

(** A transferred regular file (verified content [c] committed): regular,
    content [c], permissions of the source — or, without -p, those of the
    file that was there before —, and with -t the source's modification
    time, for every mtime value. *)
Theorem transferred_file_metadata :
  forall o e c old now s,
    g_dry o = false -> is_reg (e_mode e) = true ->
    (forall p, old = Some p -> 0 <= p < 512) ->
    run_ops (e_name e) now s (recv_ops o e c true old now) =
    PNode (mkL KReg
               (match old with Some p => if g_perms o then perm_of (e_mode e) else p | None => perm_of (e_mode e) end)
               (if g_times o then e_mtime e else now)
               (if g_uid o && g_am_root o then e_uid e else 0)
               (if g_gid o && g_am_root o then e_gid e else 0) [] 0 false) c.
Proof.
  intros o e c old now s D Hr Ho. rewrite recv_commit_result by exact D.
  destruct (reg_only _ Hr) as (_ & Tl & _).
  destruct old as [p|]; [destruct (g_perms o)|]; try now rewrite set_perms_spec_nolink.
  (* without -p the mode is the bare permissions of the old file *)
  specialize (Ho p eq_refl). rewrite set_perms_spec_nolink by (unfold is_link; now rewrite ftype_small).
  unfold perm_of. now rewrite land_small.
Qed.

(** An up-to-date regular file is not transferred; it gets the listed
    metadata, and without -p keeps its own permissions. *)
Theorem uptodate_file_metadata :
  forall Hplain o ac it e now st c s' rq,
    g_dry o = false -> is_reg (e_mode e) = true -> l_kind st = KReg -> 0 <= l_perm st < 512 ->
    skip_of Hplain ac it e (PNode st c) = true ->
    entry_step Hplain o ac it e now (PNode st c) = (s', rq) ->
    rq = ReqNone /\
    s' = PNode (mkL KReg (if g_perms o then perm_of (e_mode e) else l_perm st)
                    (if g_times o then e_mtime e else l_mtime st)
                    (if g_uid o && g_am_root o then e_uid e else l_uid st)
                    (if g_gid o && g_am_root o then e_gid e else l_gid st)
                    (l_link st) (l_rdev st) (l_nonempty st)) c.
Proof.
  intros Hplain o ac it e now st c s' rq D Hr K PR SK E.
  destruct (entry_step_uptodate Hplain _ _ _ _ _ _ _ _ _ D Hr SK E) as [-> ->]. split; [reflexivity|].
  destruct (reg_only _ Hr) as (_ & Tl & _).
  destruct (g_perms o).
  - now rewrite set_perms_spec_nolink, K.
  - rewrite set_perms_spec_nolink, K, keep_perm_perm; [reflexivity|exact PR|].
    unfold is_link. now rewrite keep_perm_ftype.
Qed.

(** Owner and group by name: the entry the generator and receiver work with
    is [localise um gm e], where [um] / [gm] come from the id lists the
    sender transmitted ([id_map_of lookup ids], [lookup] = the local user /
    group database).  An id listed with a name that exists locally becomes
    the local id of that name; an id listed with an unknown name, and an id
    that is not listed at all, is kept as it is.  (All theorems above hold
    for every entry, hence for the localised one.) *)
Theorem listed_known_name_maps_to_local_id :
  forall lookup ids id name l,
    NoDup (map fst ids) -> In (id, name) ids -> lookup name = Some l ->
    map_id (id_map_of lookup ids) id = l.
Proof. intros lookup ids id name l ND Hin Hl. now rewrite (id_map_of_listed _ _ _ _ ND Hin), Hl. Qed.

Theorem listed_unknown_name_keeps_the_id :
  forall lookup ids id name,
    NoDup (map fst ids) -> In (id, name) ids -> lookup name = None ->
    map_id (id_map_of lookup ids) id = id.
Proof. intros lookup ids id name ND Hin Hl. now rewrite (id_map_of_listed _ _ _ _ ND Hin), Hl. Qed.

Theorem unlisted_id_is_kept :
  forall lookup ids id, (forall name, ~ In (id, name) ids) -> map_id (id_map_of lookup ids) id = id.
Proof.
  intros lookup ids id H. apply map_id_unlisted. intros v Hin. unfold id_map_of in Hin.
  apply in_map_iff in Hin. destruct Hin as [[k nm] [E Hin]]. injection E as -> _. exact (H nm Hin).
Qed.

Theorem localise_changes_only_the_owner :
  forall um gm e,
    e_uid (localise um gm e) = map_id um (e_uid e) /\ e_gid (localise um gm e) = map_id gm (e_gid e) /\
    e_name (localise um gm e) = e_name e /\ e_mode (localise um gm e) = e_mode e /\
    e_mtime (localise um gm e) = e_mtime e /\ e_link (localise um gm e) = e_link e /\ e_rdev (localise um gm e) = e_rdev e.
Proof. repeat split; reflexivity. Qed.

(** setPerms itself, for any mode and any current Lstat. *)
Theorem set_perms_exact :
  forall o e mode now st c, g_dry o = false ->
    run_ops (e_name e) now (PNode st c) (set_perms_ops o e mode st) = PNode (set_perms_spec o e mode st) c.
Proof. exact set_perms_result. Qed.

(** Non-vacuity: a read-only directory (0555) over a regular file, with -t. *)
Example readonly_dir_example :
  entry_step (fun _ => []) (mkG false true true true true true true true true 18) false false
             (mkEntry [100] 4096 1500000000 (c_S_IFDIR + 365) 1234 4321 0 [] []) 7
             (PNode (mkL KReg 420 1400000000 0 0 [] 0 false) [1]) =
  (PNode (mkL KDir 365 1500000000 1234 4321 [] 0 false) [], ReqNone).
Proof. vm_compute. reflexivity. Qed.

Print Assumptions directory_metadata.
Print Assumptions readonly_directory_writable_while_filled.
Print Assumptions symlink_metadata.
Print Assumptions device_metadata.
Print Assumptions transferred_file_metadata.
Print Assumptions uptodate_file_metadata.
Print Assumptions set_perms_exact.
Print Assumptions listed_known_name_maps_to_local_id.
Print Assumptions unlisted_id_is_kept.

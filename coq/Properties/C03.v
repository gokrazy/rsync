(** C03 — Only data that passes the whole-file checksum ever replaces a
    destination file. *)
From Coq Require Import ZArith List Bool Lia.
From RV Require Import Model.Bytes Model.Md4 Model.Checksum Model.Delta
     Proofs.BytesProofs Proofs.DeltaProofs.
Import ListNotations.
Open Scope Z_scope.

(** Whatever bytes arrive (any corruption, any token order, any basis,
    including none or one that changed since its sums were sent): if the
    receiver commits bytes [bs], then the 16 bytes it consumed as the trailer
    are the whole-file sum of exactly [bs]. *)
Theorem commit_only_verified :
  forall (H : list Z -> list Z) seed basis s bs rest,
    receive_data H seed basis s = (Commit bs, rest) ->
    lenZ (filesum H seed bs) = 16 ->
    exists pre, s = pre ++ filesum H seed bs ++ rest.
Proof. intros H seed basis s bs rest E _. exact (receive_data_commit H seed basis s bs rest E). Qed.

(** Consequently, if the stream's trailer is the honest sender's
    [filesum target] and the receiver commits, the committed bytes are the
    target — or an explicit collision of the whole-file sum is exhibited.
    (Equality of lists of integers is decidable; no classical axiom.) *)
Theorem no_silent_corruption :
  forall (H : list Z -> list Z) seed basis pre target rest bs,
    lenZ (filesum H seed bs) = 16 -> lenZ (filesum H seed target) = 16 ->
    receive_data H seed basis (pre ++ filesum H seed target ++ rest) = (Commit bs, rest) ->
    bs = target \/ (bs <> target /\ filesum H seed bs = filesum H seed target).
Proof.
  intros H seed basis pre target rest bs Hl1 Hl2 E.
  destruct (receive_data_commit H seed basis _ bs rest E) as (pre' & Heq).
  assert (Hsum : filesum H seed bs = filesum H seed target).
  { rewrite !app_assoc in Heq. apply app_inv_tail in Heq. symmetry.
    apply (app_same_len _ _ _ _ Heq). rewrite !lenZ_length in *. lia. }
  destruct (list_eq_dec Z.eq_dec bs target); auto.
Qed.

(** A stream whose trailer does not match is rejected: nothing is committed,
    whatever the tokens were. *)
Theorem mismatch_rejects :
  forall (H : list Z -> list Z) seed basis h ts tr rest d,
    head_valid h -> Forall wf_token ts -> lenZ tr = 16 ->
    denote basis h ts = Some d -> filesum H seed d <> tr ->
    receive_data H seed (Some basis) (enc_head h ++ enc_tokens ts ++ le32 0 ++ tr ++ rest) = (Reject d, rest).
Proof.
  intros H seed basis h ts tr rest d Hh Hts Htr Hd Hne.
  pose proof (receive_data_exact H seed basis h ts tr rest Hh Hts Htr) as E. rewrite Hd in E. rewrite E.
  destruct (list_eqb (filesum H seed d) tr) eqn:He; [|reflexivity].
  now apply list_eqb_eq in He.
Qed.

(** Non-vacuity: one flipped literal byte under MD4 is rejected; the clean
    stream commits. *)
Example flipped_bit_rejected :
  fst (receive_data md4 3 None
    (enc_head (mkHead 0 700 16 0) ++ enc_tokens [Lit [10; 20; 31]] ++ le32 0 ++ filesum md4 3 [10; 20; 30]))
  = Reject [10; 20; 31].
Proof. vm_compute. reflexivity. Qed.
Example clean_commits :
  fst (receive_data md4 3 None
    (enc_head (mkHead 0 700 16 0) ++ enc_tokens [Lit [10; 20; 30]] ++ le32 0 ++ filesum md4 3 [10; 20; 30]))
  = Commit [10; 20; 30].
Proof. vm_compute. reflexivity. Qed.

Print Assumptions commit_only_verified.
Print Assumptions no_silent_corruption.
Print Assumptions mismatch_rejects.

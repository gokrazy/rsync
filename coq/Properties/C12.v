(** C12 — Files are re-sent exactly when the update rule says so; repeat
    syncs are no-ops: the update decision of Model/Generator.v.
    [Hplain] is the seedless whole-file hash used under -c (MD4 in the code);
    destination mtimes are floored to the second, source mtimes are whole
    seconds (wire format). *)
From Coq Require Import ZArith List Bool.
From RV Require Import Model.Bytes Model.Md4 Model.Generator Proofs.BytesProofs Proofs.GeneratorProofs.
Import ListNotations.
Open Scope Z_scope.

(** The decision rule, as the implication table of the property. *)
Theorem request_iff :
  forall (Hplain : list Z -> list Z) always_checksum ignore_times d ssize smtime scsum,
    gen_decision Hplain always_checksum ignore_times d ssize smtime scsum <> DSkip <->
    match d with
    | DstMissing => True
    | DstOther => True
    | DstFile dsize dmtime dcontent =>
        dsize <> ssize \/
        (if always_checksum then scsum <> Hplain dcontent
         else if ignore_times then True else dmtime <> smtime)
    end.
Proof.
  intros Hplain ac it d ssize smtime scsum.
  destruct d as [| |dsize dmtime dcontent]; cbn [gen_decision]; try (split; [trivial|discriminate]).
  unfold skip_file. destruct (Z.eqb_spec dsize ssize) as [Es|Ns]; cbn [negb]; [|split; [auto|discriminate]].
  destruct ac; [|destruct it; [split; [auto|discriminate]|]].
  - destruct (list_eqb scsum (Hplain dcontent)) eqn:El.
    + apply list_eqb_eq in El. split; [congruence|]. intros [?|?]; congruence.
    + split; [|discriminate]. intros _. right. intros E. now rewrite E, list_eqb_refl in El.
  - destruct (Z.eqb_spec dmtime smtime).
    + split; [congruence|intros [?|?]; congruence].
    + split; [auto|discriminate].
Qed.

(** After a successful -t sync the destination holds the source's bytes and
    the source's mtime: the next run (default rule or -c) skips the file. *)
Theorem resync_noop :
  forall (Hplain : list Z -> list Z) always_checksum content mtime,
    gen_decision Hplain always_checksum false
      (DstFile (lenZ content) mtime content) (lenZ content) mtime (Hplain content) = DSkip.
Proof.
  intros Hplain ac content mtime. cbn [gen_decision]. unfold skip_file. rewrite Z.eqb_refl.
  destruct ac; [now rewrite list_eqb_refl|now rewrite Z.eqb_refl].
Qed.

(** Under -c equal content is skipped whatever the mtimes (and whatever -I). *)
Theorem checksum_rule_ignores_mtime :
  forall (Hplain : list Z -> list Z) ignore_times content m1 m2,
    gen_decision Hplain true ignore_times
      (DstFile (lenZ content) m1 content) (lenZ content) m2 (Hplain content) = DSkip.
Proof.
  intros Hplain it content m1 m2. cbn [gen_decision]. unfold skip_file.
  now rewrite Z.eqb_refl, list_eqb_refl.
Qed.

(** Any change of size or of the mtime's seconds is picked up by the default
    rule; -I (without -c) always transfers. *)
Theorem change_detected :
  forall (Hplain : list Z -> list Z) dsize dmtime dcontent ssize smtime scsum,
    dsize <> ssize \/ dmtime <> smtime ->
    gen_decision Hplain false false (DstFile dsize dmtime dcontent) ssize smtime scsum = DDelta.
Proof. exact GeneratorProofs.change_detected. Qed.

Theorem ignore_times_always_transfers :
  forall (Hplain : list Z -> list Z) dsize dmtime dcontent ssize smtime scsum,
    gen_decision Hplain false true (DstFile dsize dmtime dcontent) ssize smtime scsum = DDelta.
Proof.
  intros Hplain dsize dmtime dcontent ssize smtime scsum. cbn [gen_decision]. unfold skip_file.
  now destruct (negb (dsize =? ssize)).
Qed.

(** Non-vacuity: same size, mtime one second apart => requested; equal =>
    skipped; under -c a content change with identical size and mtime is
    requested. *)
Example ex_plus_one_second :
  gen_decision md4 false false (DstFile 3 1000 [1;2;3]) 3 1001 [] = DDelta.
Proof. vm_compute. reflexivity. Qed.
Example ex_same_second :
  gen_decision md4 false false (DstFile 3 1000 [1;2;3]) 3 1000 [] = DSkip.
Proof. vm_compute. reflexivity. Qed.
Example ex_checksum_detects :
  gen_decision md4 true false (DstFile 3 1000 [1;2;3]) 3 1000 (md4 [1;2;4]) = DDelta.
Proof. vm_compute. reflexivity. Qed.

Print Assumptions request_iff.
Print Assumptions resync_noop.
Print Assumptions change_detected.
Print Assumptions ignore_times_always_transfers.

(** C20 — SSH listeners admit only authorised keys and expose only the rsync
    daemon.  Keys are an
    arbitrary type with decidable equality (the marshalled public key);
    [load_keys] is the authorized_keys loader over an arbitrary line parser;
    [anon_exec] is the gate in front of the exec request of a session on an
    anonymous listener, built on the model of the option parser (every
    option it knows); the daemon option table's own parse is a parameter. *)
From Coq Require Import String List Bool.
From RV Require Import Model.Popt Model.Ssh Proofs.SshProofs.
Import ListNotations.
Open Scope string_scope.

(** On an authorised listener a key is admitted exactly when it is listed;
    an empty file admits nobody; an anonymous listener admits everybody. *)
Theorem authorised_listener_admits_exactly_listed_keys :
  forall (key : Type) (key_eqb : key -> key -> bool),
    (forall a b, key_eqb a b = true <-> a = b) ->
    forall l k, admits key key_eqb (Some l) k = true <-> In k l.
Proof.
  intros key key_eqb spec l k. unfold admits. rewrite existsb_exists. split.
  - intros (x & I & E). now apply spec in E as ->.
  - intros I. exists k. split; [exact I|now apply spec].
Qed.

Theorem empty_authorized_keys_admits_nobody :
  forall (key : Type) (key_eqb : key -> key -> bool) k, admits key key_eqb (Some []) k = false.
Proof. reflexivity. Qed.

Theorem anonymous_listener_admits_everybody :
  forall (key : Type) (key_eqb : key -> key -> bool) k, admits key key_eqb None k = true.
Proof. reflexivity. Qed.

(** The listed keys are exactly the parsed non-blank, non-comment lines. *)
Theorem authorized_keys_file_semantics :
  forall (key : Type) (parse_line : string -> option key) (blank : string -> bool) lines ks,
    load_keys key parse_line blank lines = Some ks ->
    forall k, In k ks <-> exists l, In l lines /\ blank l = false /\ parse_line l = Some k.
Proof.
  intros key parse_line blank lines ks H%load_keys_parsed k.
  transitivity (In (Some k) (map Some ks)).
  - rewrite in_map_iff. split; [eauto|now intros (x & [= ->] & I)].
  - rewrite <- H, in_map_iff. setoid_rewrite filter_In. setoid_rewrite negb_true_iff.
    split; intros (l & A & B); exists l; tauto.
Qed.

(** Anonymous sessions: the daemon protocol is all there is.  It is reached
    only by a command line that selects daemon mode and carries --server ... *)
Theorem anonymous_session_runs_only_the_daemon :
  forall daemon_stage cmdline,
    anon_exec daemon_stage cmdline = DaemonProtocol ->
    exists c args, cmdline = c :: args /\ parse_arguments args = inr EDaemonMode /\ daemon_stage args = Some true.
Proof.
  intros daemon_stage [|c args]; [discriminate|]. unfold anon_exec.
  destruct (parse_arguments args) as [st|[]] eqn:P; try discriminate.
  destruct (daemon_stage args) as [[|]|] eqn:D; try discriminate.
  intros _. exists c, args. auto.
Qed.

(** ... every command line the parser accepts in client or plain server mode
    (client-mode transfers, -e / --rsh, --server on arbitrary paths) is
    refused, as is every command line it rejects. *)
Theorem client_and_server_mode_lines_are_refused :
  forall daemon_stage c args st, parse_arguments args = inl st -> anon_exec daemon_stage (c :: args) = Refused.
Proof. intros daemon_stage c args st P. unfold anon_exec. now rewrite P. Qed.

Theorem unparsable_lines_are_refused :
  forall daemon_stage c args e, parse_arguments args = inr e -> e <> EDaemonMode -> anon_exec daemon_stage (c :: args) = Refused.
Proof. intros daemon_stage c args e P N. unfold anon_exec. rewrite P. now destruct e. Qed.

(** Non-vacuity. *)
Definition always_server (_ : list string) : option bool := Some true.
Example gate_examples :
  anon_exec always_server ["rsync"; "--server"; "--daemon"; "."] = DaemonProtocol /\
  anon_exec always_server ["rsync"; "--server"; "--sender"; "-r"; "."; "/etc/"] = Refused /\
  anon_exec always_server ["rsync"; "-a"; "/etc/"; "/tmp/x"] = Refused /\
  anon_exec always_server ["rsync"; "-e"; "sh"; "host:/x"; "/tmp/y"] = Refused /\
  anon_exec always_server ["sh"; "-c"; "id"] = Refused /\
  anon_exec always_server [] = Refused.
Proof. vm_compute. repeat split; reflexivity. Qed.

Print Assumptions authorised_listener_admits_exactly_listed_keys.
Print Assumptions authorized_keys_file_semantics.
Print Assumptions anonymous_session_runs_only_the_daemon.
Print Assumptions client_and_server_mode_lines_are_refused.
Print Assumptions unparsable_lines_are_refused.

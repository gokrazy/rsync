(** C04 — destination paths change atomically.
    [recv_steps] is recvFile1 at token granularity (create the separately named pending file, append each
    data run, and — only when the whole-file checksum verified — rename it
    over the target and set its metadata; always end with the deferred
    clean-up); a crash or freeze point is a prefix of that step list. *)
From Coq Require Import ZArith List Bool.
From RV Require Import Model.Flist Model.GenOps Model.Atomic Proofs.GenOpsProofs
  Proofs.AtomicProofs Gen.Consts.
Import ListNotations.
Open Scope Z_scope.

(** At every instant (after any number [k] of steps), for every token
    stream (any data runs), any point [upto] at which the stream may fail,
    either verification outcome, and any prior state of the target, the
    target path is exactly as it was, or it is a regular file holding the
    complete new content — and the latter only for a complete, verified
    stream.  In-progress data therefore exists only in the pending file. *)
Theorem target_old_or_new_at_every_instant :
  forall o e now chunks upto verified old s0 k,
    let s' := a_run (e_name e) now (mkA s0 None) (firstn k (recv_steps o e chunks upto verified old now)) in
    a_path s' = s0 \/ (upto = None /\ verified = true /\ committed chunks (a_path s')).
Proof.
  intros o e now chunks upto verified old s0 k. unfold recv_steps.
  destruct (g_dry o) eqn:D; [left; now destruct k|].
  destruct upto as [j|]; [|destruct verified]; cbn [app].
  - (* the stream failed *) left. apply a_run_uncommitted.
  - edestruct a_run_committed as [L|C]; [exact D|left; exact L|right; eauto].
  - (* complete, the checksum did not match *) left. apply a_run_uncommitted.
Qed.

(** When recvFile1 returns — success, checksum mismatch or stream failure —
    no pending file remains. *)
Theorem no_pending_file_after_return :
  forall o e now chunks upto verified old s0,
    g_dry o = false ->
    a_temp (a_run (e_name e) now (mkA s0 None) (recv_steps o e chunks upto verified old now)) = None.
Proof.
  intros o e now chunks upto verified old s0 D. unfold recv_steps. rewrite D.
  destruct upto; rewrite ?app_assoc, app_comm_cons, a_run_app; reflexivity.
Qed.

(** An unverified stream never changes the target. *)
Theorem unverified_never_replaces :
  forall o e now chunks upto old s0,
    a_path (a_run (e_name e) now (mkA s0 None) (recv_steps o e chunks upto false old now)) = s0.
Proof.
  intros o e now chunks upto old s0.
  pose proof (target_old_or_new_at_every_instant o e now chunks upto false old s0 (length (recv_steps o e chunks upto false old now))) as A.
  rewrite firstn_all in A. now destruct A as [A|(_ & A & _)].
Qed.

(** Replacing a symlink: at every instant the path is the old entry or a
    symlink with the complete new target. *)
Theorem symlink_old_or_new_at_every_instant :
  forall o e now s k,
    let s' := run_ops (e_name e) now s (firstn k (fst (new_symlink o e now))) in
    s' = s \/ exists st, s' = PNode st [] /\ l_kind st = KLnk /\ l_link st = e_link e.
Proof.
  intros o e now s k. unfold new_symlink. cbn [fst app]. destruct k as [|k]; [now left|right].
  cbn [firstn]. rewrite run_ops_cons, apply_symlink.
  apply meta_only_keeps, Forall_firstn, set_perms_ops_meta.
  now intros.
Qed.

(** Non-vacuity: a three-run stream over an existing file, observed after
    two runs (old content, pending file holds the first two runs) and at the
    end (new content, no pending file).  (18 = umask 022, 420 = mode 0644.) *)
Definition ex_o : gopts := mkG false true true true true true false false true 18.
Definition ex_e : fentry := mkEntry [102] 0 1000000000 (c_S_IFREG + 420) 0 0 0 [] [].
Definition ex_s0 : pstate := PNode (mkL KReg 420 0 0 0 [] 0 false) [9; 9].
Example mid_flight :
  a_run [102] 7 (mkA ex_s0 None) (firstn 3 (recv_steps ex_o ex_e [[1]; [2]; [3]] None true (Some 420) 7)) =
  mkA ex_s0 (Some [1; 2]).
Proof. vm_compute. reflexivity. Qed.
Example completed :
  content_of (a_path (a_run [102] 7 (mkA ex_s0 None) (recv_steps ex_o ex_e [[1]; [2]; [3]] None true (Some 420) 7))) = Some [1; 2; 3].
Proof. vm_compute. reflexivity. Qed.

Print Assumptions target_old_or_new_at_every_instant.
Print Assumptions no_pending_file_after_return.
Print Assumptions unverified_never_replaces.
Print Assumptions symlink_old_or_new_at_every_instant.

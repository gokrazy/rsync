(** A whole session over a file list, built from the per-file pipeline.  The
    session is modelled here and not in Model/: destinations are maps from
    paths to contents, and [sync_all] folds one [file_transfer] per requested
    file over the list. *)
From Coq Require Import ZArith List Bool.
From RV Require Import Model.Bytes Model.Delta Model.Generator
     Proofs.BytesProofs Proofs.SenderProofs.
Import ListNotations.
Open Scope Z_scope.

Definition fname := list Z.
Definition dest := fname -> option (list Z).          (* content of the regular file at a path, if any *)

Definition dupdate (d : dest) (n : fname) (c : list Z) : dest :=
  fun m => if list_eqb m n then Some c else d m.

Section TreeSync.
  Variable H : list Z -> list Z.
  Variables seed chunk : Z.
  Variable requested : fname -> bool.                   (* the update rule's verdict per listed file (C12) *)

  (** one listed regular file: skipped, or run through generator -> sender -> receiver *)
  Definition sync_step (d : dest) (nc : fname * list Z) : dest :=
    if requested (fst nc) then
      match file_transfer H seed chunk (snd nc) (d (fst nc)) with
      | Commit x => dupdate d (fst nc) x
      | _ => d
      end
    else d.

  Definition sync_all (files : list (fname * list Z)) (d : dest) : dest := fold_left sync_step files d.

  (** the per-file side condition of [file_transfer_correct], against the destination as it was before the session *)
  Definition file_ok (d : dest) (nc : fname * list Z) : Prop :=
    lenZ (snd nc) < 1099511627776 /\
    match d (fst nc) with
    | Some b => lenZ b < 1099511627776 /\ no_collision H seed b (fst (gen_sums H seed b)) (snd nc)
    | None => True
    end.

  Lemma sync_step_other d nc m : list_eqb m (fst nc) = false -> sync_step d nc m = d m.
  Proof.
    intros E. unfold sync_step. destruct nc as [n c]. cbn [fst snd] in *.
    destruct (requested n); [|reflexivity].
    destruct (file_transfer H seed chunk c (d n)); try reflexivity.
    unfold dupdate. now rewrite E.
  Qed.

  Lemma sync_all_other files : forall d m,
    (forall nc, In nc files -> list_eqb m (fst nc) = false) -> sync_all files d m = d m.
  Proof.
    induction files as [|nc files IH]; intros d m Hm; [reflexivity|].
    cbn [sync_all fold_left].
    rewrite IH by (intros nc' Hin; apply Hm; now right).
    apply sync_step_other. apply Hm. now left.
  Qed.

  Lemma sync_all_unlisted files d m : ~ In m (map fst files) -> sync_all files d m = d m.
  Proof.
    intros Hm. apply sync_all_other. intros nc Hin. apply list_eqb_neq. intros ->. apply Hm. now apply in_map.
  Qed.

  (** at its own path a step looks at nothing but that path *)
  Lemma sync_step_self d n c : sync_step d (n, c) n =
    if requested n then match file_transfer H seed chunk c (d n) with Commit x => Some x | _ => d n end else d n.
  Proof.
    unfold sync_step, dupdate. cbn [fst snd]. destruct (requested n); [|reflexivity].
    destruct (file_transfer _ _ _ _ _); try reflexivity. now rewrite list_eqb_refl.
  Qed.

  (** with distinct names, a listed path ends as its own step leaves it, run on the destination as it was *)
  Lemma sync_all_at files : forall d n c, NoDup (map fst files) -> In (n, c) files ->
    sync_all files d n = sync_step d (n, c) n.
  Proof.
    induction files as [|[n0 c0] files IH]; intros d n c ND Hin; [destruct Hin|].
    inversion ND as [|? ? Hnotin ND']. cbn [sync_all fold_left].
    destruct Hin as [[= -> ->]|Hin]; [now apply sync_all_unlisted|].
    rewrite (IH _ n c ND' Hin), !sync_step_self, sync_step_other; [reflexivity|].
    apply list_eqb_neq. intros ->. apply Hnotin. apply (in_map fst _ _ Hin).
  Qed.
End TreeSync.

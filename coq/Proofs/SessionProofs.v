(** The sender's request loop never crashes and never runs out of fuel,
    whatever bytes the peer sends (Model/Session.v). *)
From Coq Require Import ZArith List Bool Lia.
From RV Require Import Model.Bytes Model.Checksum Model.Session Proofs.BytesProofs Proofs.DeltaProofs Proofs.SearchInv.
Import ListNotations.
Open Scope Z_scope.

(** what is left behind the sums is no longer than the input (fuel for the
    request loop), and sums are only read for a positive count *)
Lemma read_sums_ok fuel : forall cnt slen s l r,
  read_sums fuel cnt slen s = Some (l, r) ->
  (length r <= length s)%nat /\ (l <> [] -> 0 < cnt).
Proof.
  (* with or without fuel, a count of zero or less reads nothing *)
  induction fuel as [|f IH]; intros cnt slen s l r H; cbn [read_sums] in H;
    (destruct (cnt <=? 0) eqn:C; [injection H as <- <-; split; [lia|congruence]|]); [discriminate|].
  destruct (rd32 s) as [[s1 r1]|] eqn:E; [|discriminate].
  destruct (lenZ r1 <? slen); [discriminate|].
  destruct (read_sums f (cnt - 1) slen (dropZ slen r1)) as [[l' r']|] eqn:R; [|discriminate].
  injection H as <- <-. destruct (IH _ _ _ _ _ R) as [L _]. apply rd32_length in E.
  assert (length (dropZ slen r1) <= length r1)%nat by (rewrite dropZ_skipn, skipn_length; lia).
  split; [lia|intros _; lia].
Qed.

Section NoCrash.
  Variable H : list Z -> list Z.
  Variable seed chunk : Z.
  Hypothesis chunk_pos : 1 <= chunk.

  Definition benign (r : sess_result) : Prop :=
    match r with
    | SessDone _ _ => True
    | SessErr _ e => e = SeShort \/ e = SeIndex \/ e = SeHead
    end.

  Lemma sender_session_benign fuel : forall dry files phase s out,
    (length s < fuel)%nat -> benign (sender_session H seed chunk fuel dry files phase s out).
  Proof.
    induction fuel as [|f IH]; intros dry files phase s out Hl; [lia|].
    cbn [sender_session].
    destruct (rd32 s) as [[idx r]|] eqn:E; [|cbn; auto].
    pose proof (rd32_length _ _ _ E) as Lr.
    destruct (idx =? -1).
    { destruct (phase =? 0); [apply IH; lia|exact I]. }
    destruct dry; [apply IH; lia|].
    destruct ((idx <? 0) || (Z.of_nat (length files) <=? idx)); [cbn; auto|].
    destruct (read_head r) as [h r1| |] eqn:Eh; try (cbn; auto; fail).
    destruct (read_head_ok _ _ _ Eh) as ((p & -> & _) & Hc & Hb & _ & Hr). rewrite app_length in Lr.
    destruct ((0 <? h_count h) && (h_blen h =? 0)) eqn:G; [cbn; auto|].
    destruct (read_sums (length r1) (h_count h) (h_slen h) r1) as [[sums r2]|] eqn:Es; [|cbn; auto].
    destruct (read_sums_ok _ _ _ _ _ _ Es) as [L2 Hne].
    (* sums were read, so the count is positive, and then the test [G] has refused a block length of 0 *)
    assert (Hhead : sums <> [] -> 1 <= h_blen h /\ 0 <= h_rem h).
    { intros Hs. apply Hne in Hs. split; [lia|apply Hr]. }
    destruct (send_one_covers H seed chunk chunk_pos h sums (nth (Z.to_nat idx) files []) Hhead) as (h' & rt & -> & _).
    (* what is left behind head and sums is shorter than [s] *)
    apply IH. lia.
  Qed.

End NoCrash.

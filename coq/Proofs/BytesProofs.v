(** Model/Bytes.v: the Z-indexed slices [takeZ] and [dropZ] against [firstn]
    and [skipn], [list_eqb], and the little-endian integer codecs. *)
From Coq Require Import ZArith List Bool Lia.
From RV Require Import Model.Bytes.
Import ListNotations.
Open Scope Z_scope.

(* lia on / and mod; the setting is global, so it is undone at the end of the file *)
Ltac Zify.zify_post_hook ::= Z.div_mod_to_equations.

Lemma takeZ_firstn l : forall n, takeZ n l = firstn (Z.to_nat n) l.
Proof.
  induction l as [|x r IH]; intros n; cbn [takeZ].
  - now rewrite firstn_nil.
  - destruct (Z.leb_spec n 0) as [Hn|Hn].
    + replace (Z.to_nat n) with 0%nat by lia. reflexivity.
    + rewrite IH. replace (Z.to_nat n) with (S (Z.to_nat (n - 1))) by lia. reflexivity.
Qed.

Lemma dropZ_skipn l : forall n, dropZ n l = skipn (Z.to_nat n) l.
Proof.
  induction l as [|x r IH]; intros n; cbn [dropZ].
  - now rewrite skipn_nil.
  - destruct (Z.leb_spec n 0) as [Hn|Hn].
    + replace (Z.to_nat n) with 0%nat by lia. reflexivity.
    + rewrite IH. replace (Z.to_nat n) with (S (Z.to_nat (n - 1))) by lia. reflexivity.
Qed.

Lemma lenZ_acc_spec l : forall acc, lenZ_acc l acc = acc + Z.of_nat (length l).
Proof.
  induction l as [|x r IH]; intros acc; cbn [lenZ_acc length].
  - lia.
  - rewrite IH. lia.
Qed.

Lemma lenZ_length l : lenZ l = Z.of_nat (length l).
Proof. unfold lenZ. now rewrite lenZ_acc_spec. Qed.

Lemma lenZ_nonneg l : 0 <= lenZ l.
Proof. rewrite lenZ_length. lia. Qed.

Lemma lenZ_app a b : lenZ (a ++ b) = lenZ a + lenZ b.
Proof. rewrite !lenZ_length, app_length. lia. Qed.

Lemma lenZ_nil : lenZ (@nil Z) = 0.
Proof. reflexivity. Qed.

Lemma lenZ_cons x (l : list Z) : lenZ (x :: l) = 1 + lenZ l.
Proof. rewrite !lenZ_length. cbn [length]. lia. Qed.

Lemma skipn_skipn {A} (a b : nat) (l : list A) : skipn a (skipn b l) = skipn (b + a) l.
Proof.
  revert l; induction b as [|b IH]; intros l; [reflexivity|].
  destruct l as [|x l]; [now rewrite !skipn_nil|]. apply IH.
Qed.

Lemma dropZ_dropZ a b l : 0 <= a -> 0 <= b -> dropZ a (dropZ b l) = dropZ (b + a) l.
Proof.
  intros. rewrite !dropZ_skipn, skipn_skipn. f_equal. lia.
Qed.

Lemma takeZ_app_dropZ n l : takeZ n l ++ dropZ n l = l.
Proof. rewrite takeZ_firstn, dropZ_skipn. apply firstn_skipn. Qed.

Lemma lenZ_takeZ_min n l : 0 <= n -> lenZ (takeZ n l) = Z.min n (lenZ l).
Proof. intros Hn. rewrite !lenZ_length, takeZ_firstn, firstn_length. lia. Qed.

Lemma lenZ_takeZ n l : 0 <= n <= lenZ l -> lenZ (takeZ n l) = n.
Proof. intros Hn. rewrite lenZ_takeZ_min; lia. Qed.

Lemma lenZ_dropZ n l : 0 <= n <= lenZ l -> lenZ (dropZ n l) = lenZ l - n.
Proof.
  intros Hn. rewrite !lenZ_length in *. rewrite dropZ_skipn, skipn_length. lia.
Qed.

Lemma takeZ_app_exact a b : takeZ (lenZ a) (a ++ b) = a.
Proof.
  rewrite takeZ_firstn, lenZ_length, Nat2Z.id.
  rewrite firstn_app, Nat.sub_diag, firstn_all. cbn. apply app_nil_r.
Qed.

Lemma dropZ_app_exact a b : dropZ (lenZ a) (a ++ b) = b.
Proof.
  rewrite dropZ_skipn, lenZ_length, Nat2Z.id.
  rewrite skipn_app, Nat.sub_diag, skipn_all. reflexivity.
Qed.

Lemma takeZ_all n l : lenZ l <= n -> takeZ n l = l.
Proof.
  intros. rewrite takeZ_firstn. apply firstn_all2. rewrite lenZ_length in *. lia.
Qed.

Lemma dropZ_all n l : lenZ l <= n -> dropZ n l = [].
Proof.
  intros. rewrite dropZ_skipn. apply skipn_all2. rewrite lenZ_length in *. lia.
Qed.

Lemma dropZ_0 l : dropZ 0 l = l.
Proof. now rewrite dropZ_skipn. Qed.

Lemma takeZ_0 l : takeZ 0 l = [].
Proof. now rewrite takeZ_firstn. Qed.

Lemma takeZ_cons n x (l : list Z) : 1 <= n -> takeZ n (x :: l) = x :: takeZ (n - 1) l.
Proof. intros Hn. cbn [takeZ]. destruct (Z.leb_spec n 0); [lia|reflexivity]. Qed.

Lemma tl_dropZ n (l : list Z) : 0 <= n -> tl (dropZ n l) = dropZ (n + 1) l.
Proof.
  intros Hn. rewrite <- (dropZ_dropZ 1 n l) by lia.
  destruct (dropZ n l); [reflexivity|]. now rewrite dropZ_skipn.
Qed.

Lemma dropZ_cons n (l : list Z) : 0 <= n < lenZ l -> exists x, dropZ n l = x :: dropZ (n + 1) l.
Proof.
  intros Hn. rewrite <- tl_dropZ by lia. destruct (dropZ n l) as [|x r] eqn:E; [|now exists x].
  pose proof (lenZ_dropZ n l ltac:(lia)) as Hl. rewrite E, lenZ_nil in Hl. lia.
Qed.

Lemma takeZ_takeZ_dropZ a b l :
  0 <= a -> 0 <= b -> takeZ a l ++ takeZ b (dropZ a l) = takeZ (a + b) l.
Proof.
  intros Ha Hb. rewrite !takeZ_firstn, dropZ_skipn.
  replace (Z.to_nat (a + b)) with (Z.to_nat a + Z.to_nat b)%nat by lia.
  rewrite firstn_skipn_comm. rewrite <- (firstn_skipn (Z.to_nat a) (firstn (_ + _) l)) at 2.
  now rewrite firstn_firstn, Nat.min_l by lia.
Qed.

Lemma takeZ_snoc n (l : list Z) x r : 0 <= n -> dropZ n l = x :: r -> takeZ (n + 1) l = takeZ n l ++ [x].
Proof.
  intros Hn E. rewrite <- (takeZ_takeZ_dropZ n 1 l), E, takeZ_cons, takeZ_0 by lia. reflexivity.
Qed.

Lemma takeZ_app_ge n a b : lenZ a <= n -> takeZ n (a ++ b) = a ++ takeZ (n - lenZ a) b.
Proof.
  intros Hn. rewrite !takeZ_firstn, firstn_app, lenZ_length in *.
  rewrite firstn_all2 by lia. f_equal. f_equal. lia.
Qed.
Lemma dropZ_app_ge n a b : lenZ a <= n -> dropZ n (a ++ b) = dropZ (n - lenZ a) b.
Proof.
  intros Hn. rewrite !dropZ_skipn, skipn_app, lenZ_length in *.
  rewrite skipn_all2 by lia. cbn [app]. f_equal. lia.
Qed.
Lemma takeZ_app_le n a b : n <= lenZ a -> takeZ n (a ++ b) = takeZ n a.
Proof.
  intros Hn. rewrite !takeZ_firstn, firstn_app, lenZ_length in *.
  replace (Z.to_nat n - length a)%nat with 0%nat by lia. apply app_nil_r.
Qed.
Lemma dropZ_app_le n a b : n <= lenZ a -> dropZ n (a ++ b) = dropZ n a ++ b.
Proof.
  intros Hn. rewrite !dropZ_skipn, skipn_app, lenZ_length in *.
  replace (Z.to_nat n - length a)%nat with 0%nat by lia. reflexivity.
Qed.

Lemma lenZ_slice off len (l : list Z) : 0 <= off -> 0 <= len -> off + len <= lenZ l ->
  lenZ (takeZ len (dropZ off l)) = len.
Proof. intros Ho Hl Hi. apply lenZ_takeZ. rewrite lenZ_dropZ; lia. Qed.

Lemma window_app_l w p (a r : list Z) : 0 <= p -> 0 <= w -> p + w <= lenZ a ->
  takeZ w (dropZ p (a ++ r)) = takeZ w (dropZ p a).
Proof.
  intros Hp Hw Hl. rewrite dropZ_app_le by lia. apply takeZ_app_le.
  rewrite lenZ_dropZ by lia. lia.
Qed.

(** a window of [pre ++ B[c, c+L) ++ post] that lies inside the middle part
    is the window of [B] at the corresponding place *)
Lemma window_of_copy w (pre B post : list Z) c L p :
  0 <= c -> c + L <= lenZ B -> 0 <= w -> lenZ pre <= p -> p + w <= lenZ pre + L ->
  takeZ w (dropZ p (pre ++ takeZ L (dropZ c B) ++ post)) = takeZ w (dropZ (c + p - lenZ pre) B).
Proof.
  intros Hc HL Hw Hlo Hhi. replace (c + p - lenZ pre) with (c + (p - lenZ pre)) by lia.
  rewrite dropZ_app_ge, <- dropZ_dropZ by lia. set (X := dropZ c B).
  assert (HX : lenZ (takeZ L X) = L) by (apply lenZ_slice; lia).
  rewrite window_app_l by lia.
  rewrite <- (takeZ_app_dropZ L X) at 2. symmetry. apply window_app_l; lia.
Qed.

Lemma in_combine_seq {A} (l : list A) : forall k i e,
  nth_error l i = Some e -> In ((k + i)%nat, e) (combine (seq k (length l)) l).
Proof.
  induction l as [|x l IH]; intros k [|i] e E; try discriminate; cbn [length seq combine].
  - injection E as ->. left. f_equal. lia.
  - right. replace (k + S i)%nat with (S k + i)%nat by lia. now apply IH.
Qed.

Lemma list_eqb_eq a : forall b, list_eqb a b = true <-> a = b.
Proof.
  induction a as [|x a IH]; intros [|y b]; cbn [list_eqb].
  - tauto.
  - split; discriminate.
  - split; discriminate.
  - rewrite andb_true_iff, Z.eqb_eq, IH. split.
    + intros [E1 E2]. now subst.
    + intros E. inversion E. auto.
Qed.

Lemma list_eqb_refl a : list_eqb a a = true.
Proof. now apply list_eqb_eq. Qed.

Lemma list_eqb_neq a b : a <> b -> list_eqb a b = false.
Proof. intros N. destruct (list_eqb a b) eqn:E; [|reflexivity]. now apply list_eqb_eq in E. Qed.

Lemma le32_length v : length (le32 v) = 4%nat.
Proof. reflexivity. Qed.

Lemma lenZ_le32 v : lenZ (le32 v) = 4.
Proof. reflexivity. Qed.

Lemma rd32_le32 v s : -2147483648 <= v < 2147483648 -> rd32 (le32 v ++ s) = Some (v, s).
Proof.
  intros Hv. unfold le32, rd32. cbn [app]. f_equal. f_equal.
  unfold s32, u32_of4.
  destruct (Z.ltb_spec (v mod 256 + 256 * ((v / 256) mod 256) + 65536 * ((v / 65536) mod 256) +
                        16777216 * ((v / 16777216) mod 256)) 2147483648); lia.
Qed.

Lemma rdu32_le32 v s : 0 <= v < 4294967296 -> rdu32 (le32 v ++ s) = Some (v, s).
Proof.
  intros Hv. unfold le32, rdu32. cbn [app]. f_equal. f_equal.
  unfold u32_of4. lia.
Qed.

Lemma le32_bytes v : bytesb (le32 v) = true.
Proof.
  unfold le32, bytesb, is_byte. cbn [forallb].
  lia.
Qed.

Lemma rd32_some s v r : rd32 s = Some (v, r) -> exists p, s = p ++ r /\ length p = 4%nat.
Proof.
  unfold rd32. destruct s as [|b0 [|b1 [|b2 [|b3 r']]]]; try discriminate.
  intros [= _ <-]. now exists [b0; b1; b2; b3].
Qed.

Lemma rd32_length s v r : rd32 s = Some (v, r) -> length s = (4 + length r)%nat.
Proof. intros E. destruct (rd32_some _ _ _ E) as (p & -> & L). rewrite app_length. lia. Qed.

Lemma byte_digit b q : is_byte b = true -> (b + 256 * q) mod 256 = b /\ (b + 256 * q) / 256 = q.
Proof. unfold is_byte. lia. Qed.

(** the converse of [rd32_le32]: four bytes read as [v] are the encoding of [v] *)
Lemma rd32_inv s v r : bytesb s = true -> rd32 s = Some (v, r) -> s = le32 v ++ r /\ bytesb r = true.
Proof.
  intros B E. destruct s as [|b0 [|b1 [|b2 [|b3 r']]]]; try discriminate.
  injection E as <- <-. unfold bytesb in B. cbn [forallb] in B.
  do 4 (apply andb_true_iff in B; destruct B as [?B B]).
  split; [|exact B].
  (* the int32 read has the four bytes as its base-256 digits, the last up to a multiple of 256 *)
  assert (S : exists k, s32 (u32_of4 b0 b1 b2 b3) = b0 + 256 * (b1 + 256 * (b2 + 256 * (b3 + 256 * k)))).
  { unfold s32, u32_of4. destruct (_ <? _); [exists 0|exists (-1)]; ring. }
  destruct S as [k ->]. unfold le32.
  change 65536 with (256 * 256). change 16777216 with (256 * 256 * 256). rewrite <- !Z.div_div by lia.
  destruct (byte_digit b0 (b1 + 256 * (b2 + 256 * (b3 + 256 * k))) B0) as [-> ->].
  destruct (byte_digit b1 (b2 + 256 * (b3 + 256 * k)) B1) as [-> ->].
  destruct (byte_digit b2 (b3 + 256 * k) B2) as [-> ->].
  now destruct (byte_digit b3 k B3) as [-> _].
Qed.

(** int64 round trip, all of the int64 range; the encoding switches at 2^31. *)
Lemma rd_i64_enc v s :
  -9223372036854775808 <= v < 9223372036854775808 ->
  rd_i64 (enc_i64 v ++ s) = Some (v, s).
Proof.
  intros Hv. unfold enc_i64, rd_i64.
  destruct ((0 <=? v) && (v <=? 2147483647)) eqn:Hc.
  - rewrite rd32_le32 by lia.
    destruct (Z.eqb_spec v (-1)); [lia|reflexivity].
  - rewrite <- app_assoc, rd32_le32 by lia.
    rewrite Z.eqb_refl. unfold le64. rewrite <- !app_assoc.
    rewrite rdu32_le32 by lia. rewrite rdu32_le32 by lia.
    f_equal. f_equal. unfold s64.
    destruct (Z.ltb_spec (v mod 4294967296 + 4294967296 * ((v / 4294967296) mod 4294967296)) 9223372036854775808); lia.
Qed.

Lemma enc_i64_short v : 0 <= v <= 2147483647 -> enc_i64 v = le32 v.
Proof.
  intros. unfold enc_i64. replace (0 <=? v) with true by lia.
  replace (v <=? 2147483647) with true by lia. reflexivity.
Qed.

Lemma enc_i64_long v : v < 0 \/ 2147483647 < v -> enc_i64 v = le32 (-1) ++ le64 v.
Proof.
  intros [H|H]; unfold enc_i64.
  - replace (0 <=? v) with false by lia. reflexivity.
  - replace (v <=? 2147483647) with false by lia.
    now rewrite andb_false_r.
Qed.

Lemma take_app a b : take (lenZ a) (a ++ b) = Some (a, b).
Proof.
  unfold take. rewrite lenZ_app.
  pose proof (lenZ_nonneg a). pose proof (lenZ_nonneg b).
  replace (0 <=? lenZ a) with true by lia.
  replace (lenZ a <=? lenZ a + lenZ b) with true by lia.
  now rewrite takeZ_app_exact, dropZ_app_exact.
Qed.

Lemma take_some n s a r : take n s = Some (a, r) -> s = a ++ r /\ lenZ a = n.
Proof.
  unfold take. destruct ((0 <=? n) && (n <=? lenZ s)) eqn:Hc; [|discriminate].
  intros E. inversion E.
  split; [symmetry; apply takeZ_app_dropZ|apply lenZ_takeZ; lia].
Qed.

Ltac Zify.zify_post_hook ::= idtac.

(** recvFile1 step by step (Model/Atomic.v).  The data runs go to the pending file; of the steps after them
    only the commit changes what the target holds (setPerms its metadata), and only a complete, verified
    stream has one.  So after any prefix of the steps the target is as it was or completely replaced
    (C04 [target_old_or_new_at_every_instant]). *)
From Coq Require Import ZArith List Bool Lia.
From RV Require Import Model.Flist Model.GenOps Model.Atomic Proofs.GenOpsProofs.
Import ListNotations.
Open Scope Z_scope.

Lemma a_run_cons p now s st l : a_run p now s (st :: l) = a_run p now (a_apply p now s st) l.
Proof. reflexivity. Qed.

Lemma a_run_app p now s a b : a_run p now s (a ++ b) = a_run p now (a_run p now s a) b.
Proof. apply fold_left_app. Qed.

Lemma writes_temp p now chunks : forall s t,
  a_run p now (mkA s (Some t)) (map AWriteTemp chunks) = mkA s (Some (t ++ concat chunks)).
Proof.
  induction chunks as [|d chunks IH]; intros s t; cbn [map concat].
  - now rewrite app_nil_r.
  - rewrite a_run_cons. cbn [a_apply a_path a_temp option_map]. now rewrite IH, app_assoc.
Qed.

(** How far a prefix of the steps of recvFile1 reaches, the data runs being [cs]: nowhere, into the data
    runs, or past them into what follows *)
Lemma a_run_prefix (Q : astate -> Prop) p now s0 cs tail :
  Q (mkA s0 None) -> (forall j, Q (mkA s0 (Some (concat (firstn j cs))))) ->
  (forall j, Q (a_run p now (mkA s0 (Some (concat cs))) (firstn j tail))) ->
  forall k, Q (a_run p now (mkA s0 None) (firstn k (ACreateTemp :: map AWriteTemp cs ++ tail))).
Proof.
  intros Q0 Qw Qt [|k]; [exact Q0|]. cbn [firstn]. rewrite a_run_cons, firstn_app, a_run_app, firstn_map.
  rewrite (writes_temp _ _ _ s0 []), map_length.
  destruct (Nat.le_gt_cases k (length cs)) as [Hk|Hk].
  - replace (k - length cs)%nat with 0%nat by lia. apply Qw.
  - rewrite firstn_all2 by lia. apply Qt.
Qed.

Lemma a_run_uncommitted p now s0 cs k :
  a_path (a_run p now (mkA s0 None) (firstn k (ACreateTemp :: map AWriteTemp cs ++ [ACleanup]))) = s0.
Proof. apply (a_run_prefix (fun s' => a_path s' = s0)); try reflexivity. now intros [|[|j]]. Qed.

Section Atomic.
  Variables (o : gopts) (e : fentry) (now : Z).

  Definition committed (chunks : list (list Z)) (s' : pstate) : Prop :=
    exists st, s' = PNode st (concat chunks) /\ l_kind st = KReg.

  (** a complete, verified stream: the commit comes when the pending file holds all the runs, and
      neither setPerms nor the clean-up after it changes content or type *)
  Lemma a_run_committed cs m s0 k : g_dry o = false ->
    let s' := a_run (e_name e) now (mkA s0 None)
                (firstn k (ACreateTemp :: map AWriteTemp cs ++
                           [ACommit; AMeta (set_perms_ops o e m (fresh KReg 384 now)); ACleanup])) in
    a_path s' = s0 \/ committed cs (a_path s').
  Proof.
    intros D. revert k.
    apply (a_run_prefix (fun s' => a_path s' = s0 \/ committed cs (a_path s'))); try (now left).
    (* the prefixes of the tail: empty, up to the commit, up to setPerms, all of it *)
    intros [|[|[|k]]]; [now left|right..].
    all: cbn [firstn]; rewrite ?firstn_nil; cbn [a_run fold_left a_apply a_temp a_path];
      rewrite ?set_perms_result by exact D; eexists; split; reflexivity.
  Qed.
End Atomic.

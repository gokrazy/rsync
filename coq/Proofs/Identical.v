(** C16: an identical file costs no literal data, for every size and block
    length (any strong length, any hash). *)
From Coq Require Import ZArith List Bool Lia FMapPositive.
From RV Require Import Model.Bytes Model.Checksum Model.Delta Model.Sender
     Proofs.BytesProofs Proofs.ChecksumProofs Proofs.SenderProofs Proofs.SearchInv.
Import ListNotations.
Open Scope Z_scope.

(** Block layout a receiver computes for a file of [n] bytes. *)
Lemma layout n b j : 0 < n -> 1 <= b -> 0 <= j < (n + (b - 1)) / b ->
  let count := (n + (b - 1)) / b in let rem := n mod b in
  (if (j =? count - 1) && negb (rem =? 0) then rem else b) = Z.min b (n - j * b)
  /\ j * b < n /\ (j * b + Z.min b (n - j * b) = n <-> j = count - 1)
  /\ (j < count - 1 -> (j + 1) * b < n).
Proof.
  intros Hn Hb Hj count rem.
  destruct (block_layout (mkHead count b 0 rem) n j (conj Hb (conj eq_refl eq_refl)) Hj) as (L1 & L2 & L3 & L4).
  rewrite L1 in L3. auto.
Qed.

Definition is_ref (t : token) : Prop := match t with Ref _ => True | Lit _ => False end.

Section Identical.
  Variable H : list Z -> list Z.
  Variable seed : Z.
  Variable chunk : Z.
  Hypothesis Hchunk : 1 <= chunk.
  Variable h : sum_head.
  Variable sums : list sumbuf.
  Variable data : list Z.          (* the file, on both sides *)
  Let n := lenZ data.
  Hypothesis Hn : 0 < n.
  Hypothesis Hreg : regular h n.
  (** the sums a receiver holding [data] sends *)
  Hypothesis Hsums : forall j, 0 <= j < h_count h ->
    nth_error sums (Z.to_nat j) =
    Some (checksum1 (blk data h j), strong H seed h (blk data h j)).

  Let tt := tt_build sums 0 (PositiveMap.empty (list cand)).
  Let end_ := n + 1 - block_len h (h_count h - 1).

  (** the loop stands on a block boundary with nothing pending *)
  Definition at_block (st : sstate) : Prop :=
    exists j, 0 <= j < h_count h /\ st_off st = j * h_blen h /\ st_lastm st = j * h_blen h /\
      Forall is_ref (st_rtoks st) /\
      SInv H seed chunk h sums data st /\ RInv h data st.

  (** On a block boundary the window is that block, which is listed: the
      probe hits, a reference is emitted with no literal before it, and the
      loop stands on the next boundary, or at the end of the file. *)
  Lemma body_identical st :
    at_block st ->
    match body H seed chunk h tt n end_ st with
    | Done lm _ rt => lm = n /\ Forall is_ref rt
    | Next st' => at_block st'
    | Crashed _ => True
    end.
  Proof.
    intros (j & Hj & Hoff & Hlast & Hrefs & HS & HR).
    pose proof Hreg as (Hb & _).
    destruct (block_layout h n j Hreg Hj) as (L1 & L2 & _).
    destruct (block_layout h n (h_count h - 1) Hreg ltac:(lia)) as (M1 & M2 & _).
    (* the window at the offset is block [j] *)
    assert (Hl : Z.min (h_blen h) (n - st_off st) = block_len h j) by (rewrite Hoff; now symmetry).
    assert (Hw : takeZ (Z.min (h_blen h) (n - st_off st)) (st_cur st) = blk data h j).
    { destruct HS as (_ & _ & -> & _). now rewrite Hl, Hoff. }
    destruct (probe_complete H seed h sums data tt st j (tt_built_complete sums) HR) as (i & Hp).
    { lia. }
    { fold n. rewrite Hw. apply Hsums, Hj. }
    { fold n. now rewrite Hl. }
    destruct (probe_sound H seed h sums data tt st i (tt_built_sound sums) HR Hp) as (_ & _ & Hlen).
    fold n in Hlen. rewrite Hl in Hlen.
    pose proof (body_step H seed chunk h sums data tt end_ Hb st Hchunk (tt_built_sound sums)
                  ltac:(unfold end_; lia) HS HR) as B.
    unfold moved in B. rewrite Hp, Hlen in B.
    replace (st_off st - st_lastm st) with 0 in B by lia. rewrite emit_lit_0 in B.
    (* the exit test fires on the last block and only there *)
    destruct (block_end h n j Hreg Hj) as [(Ej & Hlast_)|(Hlt & Hnext & Hmark)]; [|fold end_ in Hmark];
      (destruct (body _ _ _ _ _ _ _ _) as [lm lc rt|st'|c]; [| |exact I]).
    - destruct B as ((off' & Hex & -> & -> & _ & ->) & _). split; [lia|now constructor].
    - destruct B as (Hex & (Ho & _) & _). lia.
    - destruct B as ((off' & Hex & -> & _) & _). lia.
    - destruct B as (Hex & (Ho & Hlm & _ & Hrt) & HS' & HR'). exists (j + 1).
      split; [lia|]. split; [lia|]. split; [lia|]. split; [rewrite Hrt; now constructor|auto].
  Qed.

  Theorem identical_no_literals h' toks tr :
    send_one H seed chunk h sums data = SOk h' toks tr -> Forall is_ref toks.
  Proof.
    pose proof Hreg as (Hb & _). pose proof (count_pos h n Hn Hreg) as Hcp.
    destruct (send_one_search H seed chunk h sums data at_block (fun lm _ rt => lm = n /\ Forall is_ref rt))
      as (lm & lc & rt & -> & -> & Hrt).
    - intros E. specialize (Hsums 0 ltac:(lia)). now rewrite E in Hsums.
    - exact Hn.
    - exact Hb.
    - intros st (j & _ & _ & _ & _ & HS & HR). auto.
    - intros HS HR. exists 0. split; [lia|]. split; [reflexivity|]. split; [reflexivity|]. split; [constructor|auto].
    - exact body_identical.
    - intros [= _ <- _]. rewrite Z.sub_diag, emit_lit_0. now apply Forall_rev.
  Qed.
End Identical.

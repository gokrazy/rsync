(** The multiplexed stream read back.  A frame the writer emits parses to its tag and payload
    ([read_msg_frame]).  The client's buffered reader, given a buffer that holds the largest frame,
    never panics, and over any sequence of well-formed data and info frames it hands out exactly the
    data bytes, however they were framed ([read_full_rep]); an error frame surfaces as its message
    ([read_full_error]). *)
From Coq Require Import ZArith List Bool Lia.
From RV Require Import Model.Bytes Model.Mux Proofs.BytesProofs Gen.Consts.
Import ListNotations.
Open Scope Z_scope.

(** the header is the tag byte above a 24-bit length: both are read back *)
Lemma mux_header_fields tg len :
  0 <= tg < 256 - c_mplexBase -> 0 <= len < 16777216 ->
  0 <= mux_header tg len < 4294967296 /\
  (mux_header tg len / 16777216 - c_mplexBase) mod 256 = tg /\
  mux_header tg len mod 16777216 = len.
Proof.
  unfold mux_header. intros Ht Hl. assert (0 <= c_mplexBase) by (unfold c_mplexBase; lia).
  rewrite Z.mod_small by lia.
  split; [lia|]. split.
  - rewrite <- (Z.div_unique_pos _ 16777216 (c_mplexBase + tg) len) by lia. rewrite Z.mod_small; lia.
  - symmetry. apply (Z.mod_unique_pos _ 16777216 (c_mplexBase + tg) len); lia.
Qed.

Lemma read_msg_frame tg p rest :
  0 <= tg < 256 - c_mplexBase -> lenZ p <= c_maxMessageSize ->
  read_msg (mux_frame tg p ++ rest) = MsgOk tg p rest.
Proof.
  intros Ht Hl.
  destruct (mux_header_fields tg (lenZ p) Ht) as (Hhd & Htg & Hlen).
  { pose proof (lenZ_nonneg p). unfold c_maxMessageSize in Hl. lia. }
  unfold read_msg, mux_frame. rewrite <- app_assoc, rdu32_le32 by exact Hhd.
  rewrite Htg, Hlen. destruct (Z.ltb_spec c_maxMessageSize (lenZ p)); [lia|].
  now rewrite take_app.
Qed.

Lemma read_msg_ok s tg p rest : read_msg s = MsgOk tg p rest -> lenZ p <= c_maxMessageSize.
Proof.
  unfold read_msg. destruct (rdu32 s) as [[hd r]|]; [|discriminate].
  destruct (Z.ltb_spec c_maxMessageSize (hd mod 16777216)); [discriminate|].
  destruct (take _ r) as [[p' rest']|] eqn:T; [|discriminate].
  intros [= _ -> _]. apply take_some in T. lia.
Qed.

Lemma mux_read_data cap p rest :
  lenZ p <= c_maxMessageSize -> lenZ p <= cap ->
  mux_read cap (mux_frame c_MsgData p ++ rest) = RData p rest.
Proof.
  intros Hl Hc. unfold mux_read. rewrite read_msg_frame; [| |exact Hl].
  - cbn [c_MsgData c_MsgError c_MsgInfo Z.eqb]. destruct (Z.ltb_spec cap (lenZ p)); [lia|reflexivity].
  - unfold c_MsgData, c_mplexBase. lia.
Qed.

Lemma mux_read_info cap p rest :
  lenZ p <= c_maxMessageSize ->
  mux_read cap (mux_frame c_MsgInfo p ++ rest) = RData [] rest.
Proof.
  intros Hl. unfold mux_read. rewrite read_msg_frame; [reflexivity| |exact Hl].
  unfold c_MsgInfo, c_mplexBase. lia.
Qed.

Lemma mux_read_error cap m rest :
  lenZ m <= c_maxMessageSize ->
  mux_read cap (mux_frame c_MsgError m ++ rest) = RErrMsg m.
Proof.
  intros Hl. unfold mux_read. rewrite read_msg_frame; [reflexivity| |exact Hl].
  unfold c_MsgError, c_mplexBase. lia.
Qed.

Lemma mux_read_no_crash cap s : c_maxMessageSize <= cap -> mux_read cap s <> RCrash.
Proof.
  intros Hc. unfold mux_read. destruct (read_msg s) as [tg p rest| |] eqn:E; try discriminate.
  apply read_msg_ok in E.
  destruct (tg =? c_MsgError); [discriminate|]. destruct (tg =? c_MsgInfo); [discriminate|].
  destruct (tg =? c_MsgData); [|discriminate].
  destruct (Z.ltb_spec cap (lenZ p)); [lia|discriminate].
Qed.

Inductive frame := FData (p : list Z) | FInfo (p : list Z).

Definition enc_frame (f : frame) : list Z :=
  match f with FData p => mux_frame c_MsgData p | FInfo p => mux_frame c_MsgInfo p end.
Definition enc_frames (fs : list frame) : list Z := flat_map enc_frame fs.
Definition frame_ok (f : frame) : Prop :=
  match f with FData p | FInfo p => lenZ p <= c_maxMessageSize end.
Fixpoint payload (fs : list frame) : list Z :=
  match fs with
  | [] => []
  | FData p :: r => p ++ payload r
  | FInfo _ :: r => payload r
  end.

Definition body (f : frame) : list Z := match f with FData p => p | FInfo _ => [] end.
Lemma payload_cons f fs : payload (f :: fs) = body f ++ payload fs.
Proof. now destruct f. Qed.

(** [Rep st d tail]: the reader state holds data [d] (buffered bytes followed
    by the data payloads of well-formed pending frames), then [tail]. *)
Definition Rep (st : bstate) (d : list Z) (tail : list Z) : Prop :=
  exists fs, Forall frame_ok fs /\ bsrc st = enc_frames fs ++ tail /\ bbuf st ++ payload fs = d.

Lemma Rep_intro buf fs tail :
  Forall frame_ok fs -> Rep (mkB buf (enc_frames fs ++ tail)) (buf ++ payload fs) tail.
Proof. intros Hok. exists fs. auto. Qed.

Lemma enc_frames_cons f fs tail :
  enc_frames (f :: fs) ++ tail = enc_frame f ++ enc_frames fs ++ tail /\
  (length (enc_frames fs ++ tail) < length (enc_frames (f :: fs) ++ tail))%nat.
Proof.
  change (enc_frames (f :: fs)) with (enc_frame f ++ enc_frames fs). rewrite <- app_assoc. split; [reflexivity|].
  rewrite (app_length (enc_frame f)). enough (4 <= length (enc_frame f))%nat by lia.
  destruct f; cbn [enc_frame]; unfold mux_frame; rewrite app_length, le32_length; lia.
Qed.

Section Demux.
  Variable bsz : Z.
  (** the hard coupling: the client's buffer must hold the largest frame *)
  Hypothesis Hcover : c_maxMessageSize <= bsz.

  Lemma bufio_read_no_crash n st : bufio_read bsz n st <> BCrash.
  Proof.
    unfold bufio_read. destruct (bbuf st); [|discriminate].
    pose proof (mux_read_no_crash (if bsz <=? n then n else bsz) (bsrc st)) as N.
    destruct (mux_read _ (bsrc st)); try discriminate.
    - now destruct (bsz <=? n).
    - intros _. apply N; [|reflexivity]. destruct (Z.leb_spec bsz n); lia.
  Qed.

  (** A frame at the head of the source: a large read (straight into the caller's slice) and a
      small one (through the buffer) both hand out the first [n] bytes of its data and keep the
      others buffered; after a large read there are none. *)
  Lemma bufio_read_frame n f rest :
    frame_ok f ->
    bufio_read bsz n (mkB [] (enc_frame f ++ rest)) = BOk (takeZ n (body f)) (mkB (dropZ n (body f)) rest).
  Proof.
    intros Hf. unfold bufio_read. cbn [bbuf bsrc]. destruct f as [p|p]; cbn [enc_frame frame_ok body] in *.
    - destruct (Z.leb_spec bsz n).
      + rewrite mux_read_data, takeZ_all, dropZ_all by lia. reflexivity.
      + rewrite mux_read_data by lia. reflexivity.
    - rewrite mux_read_info by exact Hf. now destruct (bsz <=? n).
  Qed.

  Lemma bufio_read_error n m rest :
    lenZ m <= c_maxMessageSize ->
    bufio_read bsz n (mkB [] (mux_frame c_MsgError m ++ rest)) = BErrMsg m.
  Proof. intros Hm. unfold bufio_read. cbn [bbuf bsrc]. now rewrite mux_read_error. Qed.

  (** One read under [Rep]: unless nothing is pending (and the read goes to [tail]), it returns a
      prefix of the data and leaves the rest represented; it returns a byte or consumes a frame,
      which is why [rf_fuel] is enough fuel for [read_full]. *)
  Lemma bufio_read_rep n st d tail :
    0 < n -> Rep st d tail ->
    (d = [] /\ st = mkB [] tail) \/
    exists got d' st',
      bufio_read bsz n st = BOk got st' /\ d = got ++ d' /\ lenZ got <= n /\
      Rep st' d' tail /\ (rf_fuel (n - lenZ got) st' < rf_fuel n st)%nat.
  Proof.
    intros Hn (fs & Hok & Hsrc & Hd). destruct st as [buf src]. cbn [bbuf bsrc] in *. subst src d.
    unfold rf_fuel. destruct buf as [|b buf].
    - destruct Hok as [|f fs Hf Hok]; [left; auto|right].
      destruct (enc_frames_cons f fs tail) as [-> Hlen]. rewrite payload_cons. set (p := body f).
      exists (takeZ n p), (dropZ n p ++ payload fs), (mkB (dropZ n p) (enc_frames fs ++ tail)).
      pose proof (lenZ_takeZ_min n p). pose proof (lenZ_nonneg p). repeat split.
      + now apply bufio_read_frame.
      + cbn [app]. now rewrite app_assoc, takeZ_app_dropZ.
      + lia.
      + now apply Rep_intro.
      + cbn [bsrc]. lia.
    - right. pose proof (lenZ_cons b buf). pose proof (lenZ_nonneg buf). set (l := b :: buf) in *.
      exists (takeZ n l), (dropZ n l ++ payload fs), (mkB (dropZ n l) (enc_frames fs ++ tail)).
      pose proof (lenZ_takeZ_min n l). split; [reflexivity|]. (* the buffer is not empty: it serves the read *)
      repeat split.
      + now rewrite app_assoc, takeZ_app_dropZ.
      + lia.
      + now apply Rep_intro.
      + cbn [bsrc]. lia.
  Qed.

  Lemma read_full_rep fuel : forall n acc st d tail,
    0 <= n <= lenZ d -> Rep st d tail -> (rf_fuel n st <= fuel)%nat ->
    exists st', read_full fuel bsz n acc st = BOk (acc ++ takeZ n d) st' /\ Rep st' (dropZ n d) tail.
  Proof.
    induction fuel as [|fuel IH]; intros n acc st d tail Hn HR Hf; [unfold rf_fuel in Hf; lia|].
    cbn [read_full]. destruct (Z.leb_spec n 0) as [Hz|Hpos].
    - replace n with 0 by lia. rewrite takeZ_0, dropZ_0, app_nil_r. eauto.
    - destruct (bufio_read_rep n st d tail Hpos HR) as [[-> _]|(got & d' & st1 & -> & -> & Hg & HR1 & Hm)].
      + rewrite lenZ_nil in Hn. lia.
      + rewrite lenZ_app in Hn. rewrite takeZ_app_ge, dropZ_app_ge, app_assoc by exact Hg.
        apply IH; [lia|exact HR1|lia].
  Qed.

  Lemma read_full_error fuel : forall n acc st d m rest,
    lenZ d < n -> lenZ m <= c_maxMessageSize ->
    Rep st d (mux_frame c_MsgError m ++ rest) -> (rf_fuel n st <= fuel)%nat ->
    read_full fuel bsz n acc st = BErrMsg m.
  Proof.
    induction fuel as [|fuel IH]; intros n acc st d m rest Hn Hm HR Hf; [unfold rf_fuel in Hf; lia|].
    cbn [read_full]. pose proof (lenZ_nonneg d). destruct (Z.leb_spec n 0) as [Hz|Hpos]; [lia|].
    destruct (bufio_read_rep n st d _ Hpos HR) as [[_ ->]|(got & d' & st1 & -> & -> & Hg & HR1 & Hm1)].
    - now rewrite bufio_read_error.
    - rewrite lenZ_app in Hn. apply IH with d' rest; [lia|exact Hm|exact HR1|lia].
  Qed.
End Demux.

Lemma covers : c_maxMessageSize <= c_clientBufioSize.
Proof. unfold c_maxMessageSize, c_clientBufioSize. lia. Qed.

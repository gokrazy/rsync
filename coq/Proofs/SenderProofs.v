(** The sender's hash search (Model/Sender.v), as far as the positions go:
    the tag table is the received list grouped by tag; the tokens emitted so
    far describe the file up to lastMatch ([rcov]); one run of the loop body
    keeps that true whatever the rolling registers hold ([body_sound]), and
    tokens that cover the file denote it ([rcov_denote]).  The registers, the
    loop as a whole and [send_one] are in Proofs/SearchInv.v. *)
From Coq Require Import ZArith List Bool Lia FMapPositive.
From RV Require Import Model.Bytes Model.Checksum Model.Delta Model.Sender
     Proofs.BytesProofs Proofs.DeltaProofs.
Import ListNotations.
Open Scope Z_scope.

(** what the tag table should hold under tag [t]: the listed blocks with that
    tag, with their index, in list order (numbering from [i0]) *)
Fixpoint entries (sums : list sumbuf) (i0 : Z) (t : Z) : list cand :=
  match sums with
  | [] => []
  | (s1, s2) :: r =>
      if tag s1 =? t then (i0, s1, s2) :: entries r (i0 + 1) t else entries r (i0 + 1) t
  end.

Lemma tag_nonneg s : 0 <= tag s.
Proof. unfold tag, tag2. apply Z.mod_pos_bound. reflexivity. Qed.

Lemma tt_find_empty t : tt_find (PositiveMap.empty _) t = [].
Proof. unfold tt_find. now rewrite PositiveMap.gempty. Qed.

Lemma tt_build_spec sums : forall i0 tt t, 0 <= t ->
  tt_find (tt_build sums i0 tt) t = entries sums i0 t ++ tt_find tt t.
Proof.
  induction sums as [|[s1 s2] r IH]; intros i0 tt t Ht; cbn [tt_build entries]; [reflexivity|].
  unfold tt_find at 1. destruct (Z.eqb_spec (tag s1) t) as [<-|NE].
  - now rewrite PositiveMap.gss, IH by exact Ht.
  - rewrite PositiveMap.gso; [now apply IH|].
    pose proof (tag_nonneg s1). unfold tagkey. lia.
Qed.

Lemma entries_sound sums : forall i0 t c,
  In c (entries sums i0 t) ->
  exists j s1 s2, c = (i0 + Z.of_nat j, s1, s2) /\ nth_error sums j = Some (s1, s2) /\ tag s1 = t.
Proof.
  induction sums as [|[s1 s2] r IH]; intros i0 t c; cbn [entries]; [intros []|].
  assert (Htl : In c (entries r (i0 + 1) t) ->
                exists j a b, c = (i0 + Z.of_nat j, a, b) /\ nth_error ((s1, s2) :: r) j = Some (a, b) /\ tag a = t).
  { intros Hin. destruct (IH _ _ _ Hin) as (j & a & b & -> & Hn & Ht).
    exists (S j), a, b. split; [do 2 f_equal; lia|auto]. }
  destruct (Z.eqb_spec (tag s1) t) as [E|NE]; [|exact Htl].
  intros [<-|Hin]; [|auto]. exists 0%nat, s1, s2. split; [do 2 f_equal; lia|auto].
Qed.

Lemma entries_complete sums : forall i0 t j s1 s2,
  nth_error sums j = Some (s1, s2) -> tag s1 = t ->
  In (i0 + Z.of_nat j, s1, s2) (entries sums i0 t).
Proof.
  induction sums as [|[a b] r IH]; intros i0 t j s1 s2 Hn Ht; [destruct j; discriminate|].
  cbn [entries]. destruct j as [|j]; cbn [nth_error] in Hn.
  - injection Hn as -> ->. rewrite (proj2 (Z.eqb_eq _ _) Ht). left. do 2 f_equal. lia.
  - specialize (IH (i0 + 1) t j s1 s2 Hn Ht).
    replace (i0 + Z.of_nat (S j)) with (i0 + 1 + Z.of_nat j) by lia.
    destruct (tag a =? t); [right|]; exact IH.
Qed.

(** What the search needs of a tag table: its candidates are listed blocks
    with their index, and every listed block is a candidate under its tag. *)
Definition tt_sound (sums : list sumbuf) (tt : tagtable) : Prop :=
  forall t i s1 s2, In (i, s1, s2) (tt_find tt t) ->
    0 <= i /\ nth_error sums (Z.to_nat i) = Some (s1, s2).
Definition tt_complete (sums : list sumbuf) (tt : tagtable) : Prop :=
  forall t i s1 s2, 0 <= t -> 0 <= i ->
    nth_error sums (Z.to_nat i) = Some (s1, s2) -> tag s1 = t -> In (i, s1, s2) (tt_find tt t).

Lemma tt_find_built sums t : 0 <= t ->
  tt_find (tt_build sums 0 (PositiveMap.empty _)) t = entries sums 0 t.
Proof. intros Ht. now rewrite tt_build_spec, tt_find_empty, app_nil_r. Qed.

Lemma tt_built_sound sums : tt_sound sums (tt_build sums 0 (PositiveMap.empty _)).
Proof.
  intros t i s1 s2.
  (* a negative tag is looked up under the key of tag 0 *)
  replace (tt_find _ t) with (tt_find (tt_build sums 0 (PositiveMap.empty _)) (Z.max t 0))
    by (unfold tt_find, tagkey; now replace (Z.to_pos (Z.max t 0 + 1)) with (Z.to_pos (t + 1)) by lia).
  rewrite tt_find_built by lia. intros Hin.
  destruct (entries_sound _ _ _ _ Hin) as (j & a & b & [= -> -> ->] & Hn & _).
  split; [lia|]. cbn [Z.add]. now rewrite Nat2Z.id.
Qed.

Lemma tt_built_complete sums : tt_complete sums (tt_build sums 0 (PositiveMap.empty _)).
Proof.
  intros t i s1 s2 Ht Hi Hnth Htag. rewrite tt_find_built by exact Ht.
  replace i with (0 + Z.of_nat (Z.to_nat i)) by lia. now apply entries_complete.
Qed.

Lemma lenZ_dropZ_le p (l : list Z) : 0 <= p <= lenZ l -> lenZ (dropZ p l) = lenZ l - p.
Proof. apply lenZ_dropZ. Qed.

Lemma emit_lit_0 chunk (lmc : list Z) rt : emit_lit chunk 0 lmc rt = rt.
Proof. unfold emit_lit. now rewrite takeZ_0. Qed.

Section SenderProofs.
  Variable H : list Z -> list Z.
  Variable seed : Z.
  Variable chunk : Z.
  Hypothesis Hchunk : 1 <= chunk.

  Variable basis : list Z.
  Variable h : sum_head.
  Variable sums : list sumbuf.
  Variable target : list Z.
  Let size := lenZ target.

  (** the strong sum as it travels: Checksum2 cut to the header's length; and
      block [i] of the basis as receiveSums lays it out *)
  Definition strong (w : list Z) : list Z := takeZ (h_slen h) (checksum2 H seed w).
  Definition blk (i : Z) : list Z := takeZ (block_len h i) (dropZ (i * h_blen h) basis).

  (** A block reference to block [i] for the window at position [q] of the
      target is *justified* when the truncated strong sums agree. *)
  Definition justified (i q : Z) : Prop :=
    0 <= i /\ q + block_len h i <= size /\ 1 <= block_len h i /\
    exists s1, nth_error sums (Z.to_nat i) = Some (s1, strong (takeZ (block_len h i) (dropZ q target))).

  (** [rcov rt q]: the reversed token list [rt] describes target[0,q). *)
  Inductive rcov : list token -> Z -> Prop :=
  | rc_nil : rcov [] 0
  | rc_lit bs rt q :
      rcov rt q -> bs = takeZ (lenZ bs) (dropZ q target) ->
      1 <= lenZ bs <= chunk -> q + lenZ bs <= size ->
      rcov (Lit bs :: rt) (q + lenZ bs)
  | rc_ref i rt q :
      rcov rt q -> justified i q -> rcov (Ref i :: rt) (q + block_len h i).

  Lemma rcov_bounds rt q : rcov rt q -> 0 <= q <= size.
  Proof.
    induction 1 as [| |i rt q _ IH (_ & ? & ? & _)]; [pose proof (lenZ_nonneg target)| |]; lia.
  Qed.

  Lemma lit_chunks_rcov fuel : forall l rt q rest,
    rcov rt q -> dropZ q target = l ++ rest -> (length l <= fuel)%nat ->
    rcov (lit_chunks fuel chunk l rt) (q + lenZ l).
  Proof.
    induction fuel as [|fuel IH]; intros l rt q rest Hr Hl Hf;
      (destruct l as [|x l'] eqn:El; [cbn; now rewrite Z.add_0_r|]); [cbn in Hf; lia|].
    rewrite <- El in *. assert (Hpos : 1 <= lenZ l) by (rewrite El, lenZ_cons; pose proof (lenZ_nonneg l'); lia).
    replace (lit_chunks (S fuel) chunk l rt) with (lit_chunks fuel chunk (dropZ chunk l) (Lit (takeZ chunk l) :: rt))
      by now rewrite El.
    pose proof (rcov_bounds _ _ Hr).
    (* the first chunk [c] and what is left [d] *)
    pose proof (takeZ_app_dropZ chunk l) as Ecd. pose proof (lenZ_takeZ_min chunk l ltac:(lia)) as Hc.
    set (c := takeZ chunk l) in *. set (d := dropZ chunk l) in *.
    rewrite <- Ecd, <- app_assoc in Hl.
    assert (Hlen : lenZ l = lenZ c + lenZ d) by (rewrite <- Ecd; apply lenZ_app).
    assert (Hsz : lenZ c + lenZ (d ++ rest) = size - q).
    { rewrite <- lenZ_app, <- Hl. apply lenZ_dropZ. lia. }
    pose proof (lenZ_nonneg (d ++ rest)). rewrite Hlen, Z.add_assoc.
    apply IH with rest.
    - apply rc_lit; [exact Hr| |lia|lia]. now rewrite Hl, takeZ_app_exact.
    - now rewrite <- (dropZ_dropZ (lenZ c) q), Hl, dropZ_app_exact by lia.
    - rewrite !lenZ_length in *. lia.
  Qed.

  Lemma emit_lit_rcov n rt q :
    rcov rt q -> 0 <= n -> q + n <= size ->
    rcov (emit_lit chunk n (dropZ q target) rt) (q + n).
  Proof.
    intros Hr Hn Hq. unfold emit_lit. pose proof (rcov_bounds _ _ Hr).
    rewrite <- (lenZ_takeZ n (dropZ q target)) at 3 by (rewrite lenZ_dropZ; lia).
    apply lit_chunks_rcov with (dropZ n (dropZ q target)); [exact Hr| |apply le_n].
    symmetry. apply takeZ_app_dropZ.
  Qed.

  (** sendFile: the whole file as literals *)
  Lemma whole_rcov : rcov (lit_chunks (length target) chunk target []) size.
  Proof.
    apply (lit_chunks_rcov _ target [] 0 []); [constructor| |apply le_n]. now rewrite dropZ_0, app_nil_r.
  Qed.

  Lemma lit_chunks_lits fuel : forall l rt, Forall is_lit rt -> Forall is_lit (lit_chunks fuel chunk l rt).
  Proof.
    induction fuel as [|fuel IH]; intros l rt Hrt; cbn [lit_chunks]; [exact Hrt|].
    destruct l; [exact Hrt|]. apply IH. now constructor.
  Qed.

  Lemma scan_sound cs : forall sum l cur cache i,
    (forall s, cache = Some s -> s = strong (takeZ l cur)) ->
    scan H seed h cs sum l cur cache = Some i ->
    In (i, sum, strong (takeZ l cur)) cs /\ l = block_len h i.
  Proof.
    induction cs as [|[[i' s1i] s2i] r IH]; intros sum l cur cache i Hc; cbn [scan]; [discriminate|].
    destruct ((sum =? s1i) && (l =? block_len h i')) eqn:Hw.
    2: { intros E. destruct (IH _ _ _ _ _ Hc E). split; [now right|assumption]. }
    apply andb_true_iff in Hw. destruct Hw as [Hs Hl]. apply Z.eqb_eq in Hs, Hl. subst s1i.
    replace (match cache with Some s => s | None => _ end) with (strong (takeZ l cur))
      by (destruct cache as [s|]; [symmetry; now apply Hc|reflexivity]).
    destruct (list_eqb _ s2i) eqn:He.
    - intros [= <-]. apply list_eqb_eq in He. subst s2i. split; [now left|exact Hl].
    - intros E. apply IH in E; [|now intros s [= <-]]. destruct E. split; [now right|assumption].
  Qed.

  Lemma scan_complete cs : forall sum l cur cache i,
    (forall s, cache = Some s -> s = strong (takeZ l cur)) ->
    In (i, sum, strong (takeZ l cur)) cs -> l = block_len h i ->
    exists j, scan H seed h cs sum l cur cache = Some j.
  Proof.
    induction cs as [|[[i' s1'] s2'] r IH]; intros sum l cur cache i Hc Hin Hl; [destruct Hin|].
    cbn [scan]. destruct ((sum =? s1') && (l =? block_len h i')) eqn:Hw.
    - replace (match cache with Some s => s | None => _ end) with (strong (takeZ l cur))
        by (destruct cache as [s|]; [symmetry; now apply Hc|reflexivity]).
      destruct (list_eqb _ s2') eqn:He; [eauto|].
      destruct Hin as [[= -> -> ->]|Hin]; [now rewrite list_eqb_refl in He|].
      apply (IH _ _ _ _ i); [now intros s [= <-]|exact Hin|exact Hl].
    - destruct Hin as [[= -> -> ->]|Hin]; [now rewrite Hl, !Z.eqb_refl in Hw|].
      now apply (IH _ _ _ _ i).
  Qed.

  Section SearchProofs.
    Variable tt : tagtable.
    Variable end_ : Z.
    Hypothesis Htt : tt_sound sums tt.
    Hypothesis Hend : end_ <= size.
    Hypothesis Hblen : 1 <= h_blen h.

    (** Invariant at the top of the loop, as far as exactness needs it: the
        rolling-checksum registers are unconstrained here (a match is always
        confirmed on the bytes themselves). *)
    Definition SInv (st : sstate) : Prop :=
      0 <= st_lastm st <= st_off st /\ st_off st < size /\
      st_cur st = dropZ (st_off st) target /\ st_lmc st = dropZ (st_lastm st) target /\
      rcov (st_rtoks st) (st_lastm st).

    (** [body] looks the window up and, after a match, re-reads the
        registers behind the matched block; what follows — the exit tests, the
        rolling update, the flush of a long literal run — is the same in both
        cases and is [body_tail], a function of the registers and positions. *)
    Definition body_tail (matched : bool) off1 k1 s11 s21 lastm1 (cur1 ahead1 lmc1 : list Z) rtoks1 : step_result :=
      if matched && (end_ <=? off1) then Done lastm1 lmc1 rtoks1 else
      let backup := Z.max (off1 - lastm1) 0 in
      let more := off1 + k1 <? size in
      match cur1 with
      | [] => Crashed CrashUpdate0
      | u0 :: cur2 =>
        let r :=
          if more then
            match ahead1 with
            | [] => inr CrashUpdateK
            | uk :: ahead2 =>
                let a := s11 - se u0 + se uk in
                inl (k1, a mod 65536, (s21 - k1 * se u0 + a) mod 65536, ahead2)
            end
          else inl (k1 - 1, (s11 - se u0) mod 65536, (s21 - k1 * se u0) mod 65536, ahead1) in
        match r with
        | inr c => Crashed c
        | inl (k2, s12, s22, ahead2) =>
          let '(lastm2, lmc2, rtoks2) :=
            if (h_blen h + chunk <=? backup) && (chunk <? end_ - off1) then
              let n := (off1 - h_blen h) - lastm1 in
              (off1 - h_blen h, dropZ n lmc1, emit_lit chunk n lmc1 rtoks1)
            else (lastm1, lmc1, rtoks1) in
          let off2 := off1 + 1 in
          if end_ <=? off2 then Done lastm2 lmc2 rtoks2
          else Next (mkS off2 k2 s12 s22 lastm2 cur2 ahead2 lmc2 rtoks2)
        end
      end.

    Definition probe (st : sstate) : option Z :=
      scan H seed h (tt_find tt (tag2 (st_s1 st) (st_s2 st)))
           (st_s1 st mod 65536 + st_s2 st mod 65536 * 65536)
           (Z.min (h_blen h) (size - st_off st)) (st_cur st) None.

    Lemma body_unfold st :
      body H seed chunk h tt size end_ st =
      match probe st with
      | Some i =>
          let off := st_off st in
          let len := block_len h i in
          let cur' := dropZ (len - 1) (st_cur st) in
          let k' := Z.min (h_blen h) (size - (off + len - 1)) in
          let sm := checksum1 (takeZ k' cur') in
          body_tail true (off + len - 1) k' (sum_lo sm) (sum_hi sm) (off + len) cur' (dropZ k' cur')
                    (dropZ (off - st_lastm st + len) (st_lmc st))
                    (Ref i :: emit_lit chunk (off - st_lastm st) (st_lmc st) (st_rtoks st))
      | None =>
          body_tail false (st_off st) (st_k st) (st_s1 st) (st_s2 st) (st_lastm st) (st_cur st) (st_ahead st)
                    (st_lmc st) (st_rtoks st)
      end.
    Proof. unfold body, probe, body_tail, read_chunk. now destruct (scan _ _ _ _ _ _ _ _). Qed.

    (** What the tail does to the positions, whatever the registers hold:
        unless it crashes it moves one byte on; before that it may flush the
        pending literal up to one block length behind the offset, once that
        literal exceeds a block and a chunk. *)
    Definition flushed off lastm (lmc : list Z) rt lm lc rt' : Prop :=
      (lm = lastm /\ lc = lmc /\ rt' = rt) \/
      (h_blen h + chunk <= off - lastm /\ lm = off - h_blen h /\
       lc = dropZ (lm - lastm) lmc /\ rt' = emit_lit chunk (lm - lastm) lmc rt).

    (* Stated on an equation [.. = r] so that [apply .. in] finds the ten
       arguments.  A flush needs h_blen + chunk <= off - lastm, more than the
       [Z.max .. 0] of the code says, because both are at least 1. *)
    Lemma body_tail_moves matched off k s1 s2 lastm cur ahead lmc rt r :
      body_tail matched off k s1 s2 lastm cur ahead lmc rt = r ->
      match r with
      | Crashed _ => True
      | Done lm lc rt' => end_ <= off + 1 /\ flushed off lastm lmc rt lm lc rt'
      | Next st' => off + 1 < end_ /\ st_off st' = off + 1 /\ st_cur st' = tl cur /\
                    flushed off lastm lmc rt (st_lastm st') (st_lmc st') (st_rtoks st')
      end.
    Proof.
      intros <-. unfold body_tail, flushed.
      destruct (matched && (end_ <=? off)) eqn:Ex.
      { split; [lia|auto]. }
      destruct cur as [|u0 cur2]; [exact I|].
      destruct (off + k <? size); [destruct ahead as [|uk ahead2]; [exact I|]|];
        destruct ((h_blen h + chunk <=? Z.max (off - lastm) 0) && (chunk <? end_ - off)) eqn:Fl;
        destruct (Z.leb_spec end_ (off + 1)); cbn [st_off st_cur st_lastm st_lmc st_rtoks tl];
        repeat split; try lia; solve [left; auto | right; repeat split; lia].
    Qed.

    Lemma body_tail_sound matched off k s1 s2 lastm cur ahead lmc rt :
      0 <= lastm <= off + 1 -> 0 <= off < size ->
      cur = dropZ off target -> lmc = dropZ lastm target -> rcov rt lastm ->
      match body_tail matched off k s1 s2 lastm cur ahead lmc rt with
      | Done lm lc rt' => rcov rt' lm /\ lc = dropZ lm target
      | Next st' => SInv st'
      | Crashed _ => True
      end.
    Proof.
      intros Hlm Hoff -> -> Hr.
      assert (Hfl : forall lm lc rt', flushed off lastm (dropZ lastm target) rt lm lc rt' ->
                      lastm <= lm <= off + 1 /\ rcov rt' lm /\ lc = dropZ lm target).
      { intros lm lc rt' [(-> & -> & ->)|(Hb & -> & -> & ->)]; [split; [lia|auto]|].
        split; [lia|]. split; [|rewrite dropZ_dropZ by lia; f_equal; lia].
        replace (off - h_blen h) with (lastm + (off - h_blen h - lastm)) at 2 by lia.
        apply emit_lit_rcov; [exact Hr|lia|lia]. }
      destruct (body_tail _ _ _ _ _ _ _ _ _ _) as [lm lc rt'|st'|c] eqn:T; [| |exact I]; apply body_tail_moves in T.
      - destruct T as (_ & F). now destruct (Hfl _ _ _ F) as (_ & ? & ?).
      - destruct T as (Hex & Ho & Hc & F). destruct (Hfl _ _ _ F) as (? & ? & ?).
        unfold SInv. rewrite Ho, Hc, tl_dropZ by lia. repeat split; try assumption; lia.
    Qed.

    (** a hit: the window at the offset has the length and the strong sum of
        listed block [i]; the pending literal and the reference extend the
        description of the file to the end of the window *)
    Lemma hit_sound st i :
      SInv st -> probe st = Some i ->
      let off := st_off st in
      let len := block_len h i in
      1 <= len <= size - off /\
      dropZ (len - 1) (st_cur st) = dropZ (off + len - 1) target /\
      dropZ (off - st_lastm st + len) (st_lmc st) = dropZ (off + len) target /\
      rcov (Ref i :: emit_lit chunk (off - st_lastm st) (st_lmc st) (st_rtoks st)) (off + len).
    Proof.
      intros (Hlm & Hoff & Hcur & Hlmc & Hr) Hp off len.
      apply scan_sound in Hp; [|discriminate]. destruct Hp as (Hin & Hl). fold off len in Hl.
      fold off in Hin. rewrite Hl, Hcur in Hin. apply Htt in Hin. destruct Hin as [Hi Hnth].
      assert (Hlen : 1 <= len <= size - off) by lia.
      split; [exact Hlen|]. rewrite Hcur, Hlmc, !dropZ_dropZ by lia.
      split; [f_equal; lia|]. split; [f_equal; lia|].
      apply rc_ref.
      - replace off with (st_lastm st + (off - st_lastm st)) at 2 by lia.
        apply emit_lit_rcov; [exact Hr|lia|lia].
      - split; [exact Hi|]. split; [fold len; lia|]. split; [apply Hlen|]. eexists. exact Hnth.
    Qed.

    Lemma body_sound st :
      SInv st ->
      match body H seed chunk h tt size end_ st with
      | Done lastm' lmc' rtoks' => rcov rtoks' lastm' /\ lmc' = dropZ lastm' target
      | Next st' => SInv st'
      | Crashed _ => True
      end.
    Proof.
      intros HS. pose proof HS as (Hlm & Hoff & Hcur & Hlmc & Hr). rewrite body_unfold.
      destruct (probe st) as [i|] eqn:Hp; [|now apply body_tail_sound; try lia].
      destruct (hit_sound st i HS Hp) as (Hlen & Hc & Hl & Hr1). now apply body_tail_sound; try lia.
    Qed.

    (** Where one run of the body leaves the loop, by the probe: a hit moves
        offset and lastMatch behind the matched block and emits the pending
        literal and the reference; a miss moves one byte on, after perhaps
        flushing part of the pending literal. *)
    Definition moved (st : sstate) off' lm (lc : list Z) rt : Prop :=
      match probe st with
      | Some i =>
          off' = st_off st + block_len h i /\ lm = off' /\
          lc = dropZ (st_off st - st_lastm st + block_len h i) (st_lmc st) /\
          rt = Ref i :: emit_lit chunk (st_off st - st_lastm st) (st_lmc st) (st_rtoks st)
      | None =>
          off' = st_off st + 1 /\ flushed (st_off st) (st_lastm st) (st_lmc st) (st_rtoks st) lm lc rt
      end.

    Lemma moved_hit st i off' lm lc rt : probe st = Some i -> moved st off' lm lc rt ->
      off' = st_off st + block_len h i /\ lm = off' /\
      rt = Ref i :: emit_lit chunk (st_off st - st_lastm st) (st_lmc st) (st_rtoks st).
    Proof. unfold moved. intros -> (? & ? & _ & ?). auto. Qed.

    Lemma moved_miss st off' lm lc rt : probe st = None -> moved st off' lm lc rt ->
      off' = st_off st + 1 /\ flushed (st_off st) (st_lastm st) (st_lmc st) (st_rtoks st) lm lc rt.
    Proof. unfold moved. now intros ->. Qed.

    Lemma body_moves st r : body H seed chunk h tt size end_ st = r ->
      match r with
      | Crashed _ => True
      | Done lm lc rt => exists off', end_ <= off' /\ moved st off' lm lc rt
      | Next st' => st_off st' < end_ /\ moved st (st_off st') (st_lastm st') (st_lmc st') (st_rtoks st')
      end.
    Proof.
      rewrite body_unfold. unfold moved. destruct (probe st) as [i|]; intros T; apply body_tail_moves in T;
        (destruct r as [lm lc rt|st'|c]; [| |exact I]).
      (* behind a hit nothing is pending, so nothing is flushed *)
      - destruct T as (Hex & [(-> & -> & ->)|(? & _)]); [|lia]. exists (st_off st + block_len h i).
        split; [lia|auto].
      - destruct T as (Hex & Ho & _ & [(-> & -> & ->)|(? & _)]); [|lia].
        split; [lia|]. split; [lia|]. split; [lia|auto].
      - destruct T as (Hex & F). exists (st_off st + 1). split; [lia|auto].
      - destruct T as (Hex & Ho & _ & F). split; [lia|auto].
    Qed.
  End SearchProofs.

  (** The received sums are the ones a receiver holding [basis] computes for
      layout [h] (only the strong half matters for exactness), and every
      listed block lies inside the basis. *)
  Definition sums_legal : Prop :=
    forall i s1 s2, 0 <= i -> nth_error sums (Z.to_nat i) = Some (s1, s2) ->
      s2 = strong (blk i) /\ 0 <= i * h_blen h /\ i * h_blen h + block_len h i <= lenZ basis.

  (** No window of the target collides with a *different* basis block under
      the truncated strong checksum (for slen = 16: no MD4 collision among
      these strings).  This is the only escape from exactness and it is a
      statement about specific strings, not an injectivity assumption. *)
  Definition no_collision : Prop :=
    forall i q, 0 <= i -> 0 <= q -> q + block_len h i <= size ->
      strong (takeZ (block_len h i) (dropZ q target)) = strong (blk i) ->
      takeZ (block_len h i) (dropZ q target) = blk i.

  (** Tokens that describe target[0,q) denote it against any basis [b] and
      header [hh] under which each of their references reads the bytes the
      target has at that place. *)
  Lemma rcov_denote_with b hh rt q :
    rcov rt q ->
    (forall i q', In (Ref i) rt -> 0 <= q' -> justified i q' ->
       ref_bytes b hh i = Some (takeZ (block_len h i) (dropZ q' target))) ->
    denote b hh (rev rt) = Some (takeZ q target).
  Proof.
    intros Hr. induction Hr as [|bs rt q Hr IH Hbs Hlen Hq|i rt q Hr IH Hj]; intros Href.
    - now rewrite takeZ_0.
    - cbn [rev]. rewrite denote_app, IH by (intros i q' Hin; apply Href; now right).
      cbn [denote]. rewrite app_nil_r, Hbs at 1. pose proof (rcov_bounds _ _ Hr).
      now rewrite takeZ_takeZ_dropZ by lia.
    - cbn [rev]. rewrite denote_app, IH by (intros i' q' Hin; apply Href; now right).
      pose proof (rcov_bounds _ _ Hr). cbn [denote]. rewrite (Href i q (or_introl eq_refl)), app_nil_r by (lia || exact Hj).
      destruct Hj as (_ & _ & ? & _). now rewrite takeZ_takeZ_dropZ by lia.
  Qed.

  Lemma rcov_denote_whole b hh rt :
    rcov rt size ->
    (forall i q', In (Ref i) rt -> 0 <= q' -> justified i q' ->
       ref_bytes b hh i = Some (takeZ (block_len h i) (dropZ q' target))) ->
    denote b hh (rev rt) = Some target.
  Proof.
    intros Hr Href. rewrite (rcov_denote_with b hh rt size Hr Href). now rewrite takeZ_all by apply Z.le_refl.
  Qed.

  Lemma rcov_denote rt :
    rcov rt size -> sums_legal -> no_collision -> denote basis h (rev rt) = Some target.
  Proof.
    intros Hr Hleg Hnc. apply rcov_denote_whole; [exact Hr|].
    intros i q' _ Hq0 (Hi & Hq & Hl & s1 & Hnth). destruct (Hleg i _ _ Hi Hnth) as (Hs & Hlo & Hhi).
    rewrite ref_bytes_inside by lia.
    now rewrite (Hnc i q' Hi Hq0 Hq Hs).
  Qed.

  Lemma rcov_denote_lits b hh rt :
    rcov rt size -> Forall is_lit rt -> denote b hh (rev rt) = Some target.
  Proof.
    intros Hr Hl. apply rcov_denote_whole; [exact Hr|].
    intros i q' Hin. rewrite Forall_forall in Hl. destruct (Hl _ Hin).
  Qed.

  Lemma rcov_wf rt q :
    rcov rt q -> chunk < 2147483648 -> Z.of_nat (length sums) < 2147483648 -> Forall wf_token rt.
  Proof.
    intros Hr Hc Hs. induction Hr as [|bs rt q Hr IH Hbs Hlen Hq|i rt q Hr IH Hj]; constructor; auto.
    - cbn [wf_token]. lia.
    - cbn [wf_token]. destruct Hj as (Hi & _ & _ & s1 & Hnth).
      assert (Z.to_nat i < length sums)%nat by (apply nth_error_Some; congruence). lia.
  Qed.
End SenderProofs.

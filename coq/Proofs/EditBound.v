(** C16: the literal data sent for an edited file is bounded.

    First a counting invariant of the search loop (Section EditBound).  Given
    a set of *starts* — offsets of the target at which a full-length listed
    block stands, pairwise at least one block length apart, and comprising
    every offset at which any full-length listed block's sums match — the
    bytes sent as literals are at most the number of target positions not
    covered by [start, start + blen).  The argument is the one the property
    is about: the search looks a block up at *every* offset it passes
    ([body_regs] and [probe_complete]: C16's rolling_invariant and
    no_false_negative), so it cannot walk over a start
    without emitting a reference, and a reference at a start lands on the next
    start of a run of consecutive blocks.

    Then (Section EditScript) the starts of a target that is an edit script
    over the basis, and how few positions they leave uncovered. *)
From Coq Require Import ZArith List Bool Lia FMapPositive.
From RV Require Import Model.Bytes Model.Checksum Model.Delta Model.Sender
     Proofs.BytesProofs Proofs.ChecksumProofs Proofs.SenderProofs Proofs.SearchInv.
Import ListNotations.
Open Scope Z_scope.

(** Literal bytes carried by a token list. *)
Fixpoint lits (ts : list token) : Z :=
  match ts with
  | [] => 0
  | Lit bs :: r => lenZ bs + lits r
  | Ref _ :: r => lits r
  end.

Lemma lits_app a : forall b, lits (a ++ b) = lits a + lits b.
Proof. induction a as [|[bs|i] a IH]; intros b; cbn [lits app]; rewrite ?IH; lia. Qed.

Lemma lits_rev a : lits (rev a) = lits a.
Proof.
  induction a as [|t a IH]; [reflexivity|]. cbn [rev]. rewrite lits_app, IH.
  destruct t; cbn [lits]; lia.
Qed.

Lemma lits_nonneg a : 0 <= lits a.
Proof. induction a as [|[bs|i] a IH]; cbn [lits]; [lia| |lia]. pose proof (lenZ_nonneg bs). lia. Qed.

Lemma lits_lit_chunks chunk fuel : 1 <= chunk -> forall l rt, (length l <= fuel)%nat ->
  lits (lit_chunks fuel chunk l rt) = lits rt + lenZ l.
Proof.
  intros Hc. induction fuel as [|fuel IH]; intros l rt Hf.
  - destruct l; [|cbn in Hf; lia]. cbn [lit_chunks]. rewrite lenZ_nil. lia.
  - destruct l as [|x l'].
    + cbn [lit_chunks]. rewrite lenZ_nil. lia.
    + cbn [lit_chunks]. remember (x :: l') as l.
      rewrite IH.
      * cbn [lits]. rewrite <- (takeZ_app_dropZ chunk l) at 3. rewrite lenZ_app. lia.
      * rewrite dropZ_skipn, skipn_length. lia.
Qed.

Lemma lits_emit_lit chunk n lmc rt : 1 <= chunk -> 0 <= n <= lenZ lmc ->
  lits (emit_lit chunk n lmc rt) = lits rt + n.
Proof.
  intros Hc Hn. unfold emit_lit. rewrite lits_lit_chunks by (exact Hc || lia).
  rewrite lenZ_takeZ by lia. reflexivity.
Qed.

Section Counting.
  Variable freeb : Z -> bool.

  (** number of positions in [0, n) that are not free *)
  Fixpoint nf (n : nat) : Z :=
    match n with
    | O => 0
    | S m => nf m + (if freeb (Z.of_nat m) then 0 else 1)
    end.
  Definition nfz (x : Z) : Z := nf (Z.to_nat x).

  Lemma nfz_0 : nfz 0 = 0.
  Proof. reflexivity. Qed.

  Lemma nfz_step x : 0 <= x -> nfz (x + 1) = nfz x + (if freeb x then 0 else 1).
  Proof.
    intros Hx. unfold nfz. replace (Z.to_nat (x + 1)) with (S (Z.to_nat x)) by lia.
    cbn [nf]. rewrite Z2Nat.id by lia. reflexivity.
  Qed.

  Lemma nfz_between x y : 0 <= x <= y ->
    nfz x <= nfz y <= nfz x + (y - x) /\
    ((forall p, x <= p < y -> freeb p = false) -> nfz y = nfz x + (y - x)) /\
    ((forall p, x <= p < y -> freeb p = true) -> nfz y = nfz x).
  Proof.
    intros [Hx Hy].
    assert (Hd : forall d, 0 <= d ->
              nfz x <= nfz (x + d) <= nfz x + d /\
              ((forall p, x <= p < x + d -> freeb p = false) -> nfz (x + d) = nfz x + d) /\
              ((forall p, x <= p < x + d -> freeb p = true) -> nfz (x + d) = nfz x)).
    { apply natlike_ind.
      - rewrite Z.add_0_r. lia.
      - intros d Hd (IH1 & IH2 & IH3). rewrite Z.add_succ_r, <- Z.add_1_r, nfz_step by lia.
        split; [destruct (freeb (x + d)); lia|].
        split; intros Hp; rewrite (Hp (x + d)) by lia; [rewrite IH2|rewrite IH3]; try lia; intros p Hpp; apply Hp; lia. }
    specialize (Hd (y - x) ltac:(lia)). now replace (x + (y - x)) with y in Hd by lia.
  Qed.
End Counting.

Section EditBound.
  Variable H : list Z -> list Z.
  Variable seed : Z.
  Variable chunk : Z.
  Hypothesis Hchunk : 1 <= chunk.
  Variable h : sum_head.
  Variable sums : list sumbuf.
  Variable target : list Z.
  Let size := lenZ target.
  Hypothesis Hblen : 1 <= h_blen h.
  Hypothesis Hrem : 0 <= h_rem h <= h_blen h.

  Let tt := tt_build sums 0 (PositiveMap.empty (list cand)).
  Let end_ := size + 1 - block_len h (h_count h - 1).

  Definition window (p : Z) : list Z := takeZ (h_blen h) (dropZ p target).

  Variable start : Z -> bool.
  Hypothesis Hlisted : forall o, start o = true ->
    0 <= o /\ o + h_blen h <= size /\
    exists i, 0 <= i /\ block_len h i = h_blen h /\
      nth_error sums (Z.to_nat i) = Some (checksum1 (window o), strong H seed h (window o)).
  Hypothesis Hall : forall p i, 0 <= p -> p + h_blen h <= size -> 0 <= i -> block_len h i = h_blen h ->
    nth_error sums (Z.to_nat i) = Some (checksum1 (window p), strong H seed h (window p)) ->
    start p = true.
  Hypothesis Hapart : forall o o', start o = true -> start o' = true -> o < o' -> o + h_blen h <= o'.
  Variable freeb : Z -> bool.
  Hypothesis HF : forall p, freeb p = true <-> exists o, start o = true /\ o <= p < o + h_blen h.

  Lemma end_bounds : size - h_blen h < end_ <= size.
  Proof.
    destruct (block_len_bounds h (h_count h - 1) Hblen (proj1 Hrem)) as [Hlo Hhi].
    specialize (Hhi (proj2 Hrem)). unfold end_. lia.
  Qed.

  Notation NF := (nfz freeb).

  Lemma tail_nonfree x : 0 <= x <= size -> end_ <= x ->
    (forall o, start o = true -> x <= o \/ o + h_blen h <= x) ->
    NF size = NF x + (size - x).
  Proof.
    intros Hx0 Hx Hno. apply nfz_between; [lia|].
    intros p Hp. destruct (freeb p) eqn:Ef; [exfalso|reflexivity].
    apply HF in Ef. destruct Ef as (o & Ho & Hop).
    destruct (Hlisted o Ho) as (Ho0 & Hos & _). pose proof end_bounds. destruct (Hno o Ho); lia.
  Qed.

  (** The counting invariant: the literal bytes emitted so far are covered by
      the non-free positions before lastMatch; every position between
      lastMatch and the offset is non-free (the search would have matched at
      a start); and a free offset is a start. *)
  Definition counted (st : sstate) : Prop :=
    SInv H seed chunk h sums target st /\ RInv h target st /\
    lits (st_rtoks st) <= NF (st_lastm st) /\
    NF (st_off st) = NF (st_lastm st) + (st_off st - st_lastm st) /\
    (freeb (st_off st) = true -> start (st_off st) = true).

  (** what the exits of the loop hand to the final literal: behind lastMatch
      nothing is free *)
  Definition counted_exit (lastm : Z) (rtoks : list token) : Prop :=
    0 <= lastm <= size /\ lits rtoks <= NF lastm /\ NF size = NF lastm + (size - lastm).

  Lemma counted_moved st x lm lc rt :
    counted st -> moved H seed chunk h target tt st x lm lc rt ->
    st_off st < x <= size /\ 0 <= lm <= x /\ lits rt <= NF lm /\ NF x = NF lm + (x - lm) /\
    (forall o, start o = true -> x <= o \/ o + h_blen h <= x).
  Proof.
    intros (HS & HR & Klits & Kmid & Kstart) M. pose proof HS as (Hlm & Hoff & Hcur & Hlmc & Hrc).
    set (off := st_off st) in *. set (lastm := st_lastm st) in *.
    assert (Hmid : forall y, lastm <= y <= off -> NF y = NF lastm + (y - lastm)).
    { intros y Hy. pose proof (nfz_between freeb lastm y ltac:(lia)). pose proof (nfz_between freeb y off ltac:(lia)). lia. }
    assert (Hlenlmc : lenZ (st_lmc st) = size - lastm) by (rewrite Hlmc; apply lenZ_dropZ; fold size; lia).
    destruct (probe H seed h target tt st) as [i|] eqn:Hp.
    - (* a block matched at this offset: a full-length match stands on a start *)
      eapply moved_hit in M; [|exact Hp]. fold off lastm in M. destruct M as (-> & -> & ->).
      destruct (probe_sound H seed h sums target tt st i (tt_built_sound sums) HR Hp) as (Hi & Hnth & Hl).
      rewrite <- Hl, Hcur in Hnth. set (len := block_len h i) in *.
      split; [lia|]. split; [lia|]. split; [|split; [lia|]].
      + cbn [lits]. rewrite lits_emit_lit by (exact Hchunk || lia).
        pose proof (nfz_between freeb off (off + len) ltac:(lia)). lia.
      + intros o Ho. destruct (Hlisted o Ho) as (Ho0 & Hos & _).
        (* a shorter match is the last block: it ends at the end of the file, behind every start *)
        destruct (Z.eq_dec len (h_blen h)) as [Efull|]; [|right; lia].
        assert (Hst : start off = true) by (apply (Hall off i); try lia; unfold window; now rewrite <- Efull).
        destruct (Z_le_gt_dec o off) as [Hle|Hgt]; [lia|]. pose proof (Hapart off o Hst Ho ltac:(lia)). lia.
    - (* nothing matched: this offset is not a start, so it is not free *)
      eapply moved_miss in M; [|exact Hp]. fold off lastm in M. destruct M as (-> & F).
      assert (Hns : start off = false).
      { destruct (start off) eqn:Est; [exfalso|reflexivity].
        destruct (Hlisted _ Est) as (Ho0 & Hos & i & Hi & Hbl & Hnth).
        destruct (probe_complete H seed h sums target tt st i (tt_built_complete sums) HR Hi) as (j & Hj);
          [|fold size off; lia|congruence].
        fold size off. rewrite Hcur. now replace (Z.min (h_blen h) (size - off)) with (h_blen h) by lia. }
      assert (Hnf : freeb off = false) by (destruct (freeb off); [now rewrite Kstart in Hns|reflexivity]).
      assert (Hstep : NF (off + 1) = NF off + 1) by (now rewrite nfz_step, Hnf by lia).
      assert (Hfl : lastm <= lm <= off /\ lits rt <= NF lm).
      { destruct F as [(-> & _ & ->)|(Hb & -> & _ & ->)]; [split; [lia|exact Klits]|]. split; [lia|].
        rewrite lits_emit_lit, (Hmid (off - h_blen h)) by (exact Hchunk || lia). lia. }
      destruct Hfl as (Hlmr & Hl'). pose proof (Hmid lm Hlmr).
      split; [lia|]. split; [lia|]. split; [exact Hl'|]. split; [lia|].
      intros o Ho. destruct (Z_le_gt_dec (off + 1) o); [now left|right].
      destruct (Z_le_gt_dec (o + h_blen h) off); [lia|exfalso].
      assert (freeb off = true) by (apply HF; exists o; split; [exact Ho|lia]). congruence.
  Qed.

  Lemma body_counted st :
    counted st ->
    match body H seed chunk h tt size end_ st with
    | Done lm lc rt => lc = dropZ lm target /\ counted_exit lm rt
    | Next st' => counted st'
    | Crashed _ => True
    end.
  Proof.
    intros HK. pose proof HK as (HS & HR & _).
    pose proof (body_step H seed chunk h sums target tt end_ Hblen st Hchunk (tt_built_sound sums)
                  (proj2 end_bounds) HS HR) as B.
    destruct (body _ _ _ _ _ _ _ _) as [lm lc rt|st'|c]; [| |exact I].
    - destruct B as ((x & Hex & M) & _ & Hlc).
      destruct (counted_moved _ _ _ _ _ HK M) as (Hx & Hlmx & Hl & Hnf & Hno).
      split; [exact Hlc|]. split; [lia|]. split; [exact Hl|]. rewrite (tail_nonfree x) by (lia || exact Hno). lia.
    - destruct B as (Hex & M & HS' & HR').
      destruct (counted_moved _ _ _ _ _ HK M) as (Hx & Hlmx & Hl & Hnf & Hno).
      split; [exact HS'|]. split; [exact HR'|]. split; [exact Hl|]. split; [exact Hnf|].
      (* where the search stands next, a free position is a start *)
      intros Ef. apply HF in Ef. destruct Ef as (o & Hso & Hop).
      destruct (Hno o Hso); [|lia]. now replace (st_off st') with o by lia.
  Qed.

  Theorem send_one_lits h' toks tr :
    sums <> [] -> 0 < size ->
    send_one H seed chunk h sums target = SOk h' toks tr -> lits toks <= NF size.
  Proof.
    intros Hne Hn.
    destruct (send_one_search H seed chunk h sums target counted
                (fun lm lc rt => lc = dropZ lm target /\ counted_exit lm rt)) as (lm & lc & rt & -> & -> & Hlm & Hl & Ht).
    - exact Hne.
    - exact Hn.
    - exact Hblen.
    - intros st (HS & HR & _). auto.
    - intros HS HR. split; [exact HS|]. split; [exact HR|]. cbn [search_start st_rtoks st_lastm st_off lits].
      rewrite nfz_0. split; [lia|]. split; [lia|]. intros Ef. apply HF in Ef. destruct Ef as (o & Hso & Hop).
      destruct (Hlisted o Hso) as (Ho0 & _). now replace 0 with o by lia.
    - exact body_counted.
    - intros [= _ <- _]. rewrite lits_rev, lits_emit_lit; [lia|exact Hchunk|].
      rewrite lenZ_dropZ by (fold size; lia). lia.
  Qed.
End EditBound.

Lemma multiples_apart b j j' : 1 <= b -> j * b < j' * b -> (j + 1) * b <= j' * b.
Proof.
  intros Hb Hlt. apply Z.mul_lt_mono_pos_r in Hlt; [|lia]. apply Z.mul_le_mono_nonneg_r; lia.
Qed.

Lemma block_of b q : 1 <= b -> exists j, j * b <= q < (j + 1) * b.
Proof.
  intros Hb. exists (q / b).
  pose proof (Z.div_mod q b ltac:(lia)). pose proof (Z.mod_pos_bound q b ltac:(lia)). lia.
Qed.

(** The target as an edit script over the basis: a sequence of pieces, bytes
    that are new ([Ins]) and unedited stretches of the receiver's file
    ([Copy c L] = basis[c, c+L)).  A script of e insertions, deletions and
    replacements at arbitrary offsets has at most e + 1 [Copy] pieces; a moved
    stretch adds up to three. *)
Inductive piece := Ins (bs : list Z) | Copy (c L : Z).

Section EditScript.
  Variable H : list Z -> list Z.
  Variable seed : Z.
  Variable chunk : Z.
  Hypothesis Hchunk : 1 <= chunk.
  Variable h : sum_head.
  Variable sums : list sumbuf.
  Variable basis : list Z.          (* the receiver's copy *)
  Let n := lenZ basis.
  Hypothesis Hn : 0 < n.
  Hypothesis Hb : 1 <= h_blen h.
  Hypothesis Hcount : h_count h = (n + (h_blen h - 1)) / h_blen h.
  Hypothesis Hrem : h_rem h = n mod h_blen h.
  (** the sums a receiver holding [basis] sends *)
  Hypothesis Hsums : forall j, 0 <= j < h_count h ->
    nth_error sums (Z.to_nat j) =
    Some (checksum1 (blk basis h j), strong H seed h (blk basis h j)).

  Definition piece_bytes (pc : piece) : list Z :=
    match pc with Ins bs => bs | Copy c L => takeZ L (dropZ c basis) end.
  Fixpoint build (ps : list piece) : list Z :=
    match ps with [] => [] | pc :: r => piece_bytes pc ++ build r end.
  Definition piece_ok (pc : piece) : Prop :=
    match pc with Ins _ => True | Copy c L => 0 <= c /\ 0 <= L /\ c + L <= n end.
  Fixpoint ins_bytes (ps : list piece) : Z :=
    match ps with [] => 0 | Ins bs :: r => lenZ bs + ins_bytes r | Copy _ _ :: r => ins_bytes r end.
  Fixpoint copies (ps : list piece) : Z :=
    match ps with [] => 0 | Ins _ :: r => copies r | Copy _ _ :: r => 1 + copies r end.

  (** [p] is the place of a whole block of the basis inside a [Copy] piece;
      [u] is the offset of the first piece of [ps] in the target *)
  Definition in_copy (u c L p : Z) : bool :=
    (u <=? p) && (p + h_blen h <=? u + L) && ((c + p - u) mod h_blen h =? 0).
  Fixpoint startP (ps : list piece) (u p : Z) : bool :=
    match ps with
    | [] => false
    | Ins bs :: r => startP r (u + lenZ bs) p
    | Copy c L :: r => in_copy u c L p || startP r (u + L) p
    end.

  Lemma in_copy_spec u c L p : in_copy u c L p = true <->
    u <= p /\ p + h_blen h <= u + L /\ exists j, c + p - u = j * h_blen h.
  Proof.
    clear - Hb. unfold in_copy. rewrite !andb_true_iff, !Z.leb_le, Z.eqb_eq, Z.mod_divide by lia.
    unfold Z.divide. tauto.
  Qed.

  Lemma basis_regular : regular h n.
  Proof. exact (conj Hb (conj Hcount Hrem)). Qed.

  Lemma piece_len pc : piece_ok pc -> lenZ (piece_bytes pc) = match pc with Ins bs => lenZ bs | Copy _ L => L end.
  Proof.
    destruct pc as [bs|c L]; [reflexivity|]. intros (Hc & HL & Hcl). apply lenZ_slice; fold n; lia.
  Qed.

  (** the offset [u] is always the length of what stands before the pieces in the target, [pre] *)
  Lemma startP_cons pc r pre p : piece_ok pc ->
    startP (pc :: r) (lenZ pre) p = true <->
    (exists c L, pc = Copy c L /\ in_copy (lenZ pre) c L p = true) \/
    startP r (lenZ (pre ++ piece_bytes pc)) p = true.
  Proof.
    intros Hpc. rewrite lenZ_app, (piece_len pc Hpc). destruct pc as [bs|c L]; cbn [startP].
    - split; [now right|]. now intros [(c & L & [=] & _)|Hs].
    - rewrite orb_true_iff. split; (intros [Hs|Hs]; [left|now right]).
      + eauto.
      + now destruct Hs as (c' & L' & [= <- <-] & Hs).
  Qed.

  Lemma startP_spec ps : forall pre p, Forall piece_ok ps -> startP ps (lenZ pre) p = true ->
    lenZ pre <= p /\ p + h_blen h <= lenZ (pre ++ build ps) /\
    exists j, 0 <= j /\ (j + 1) * h_blen h <= n /\
      window h (pre ++ build ps) p = takeZ (h_blen h) (dropZ (j * h_blen h) basis).
  Proof.
    induction ps as [|pc r IH]; intros pre p Hok Hs; [discriminate|].
    inversion Hok as [|? ? Hpc Hr]; subst. cbn [build].
    apply startP_cons in Hs; [|exact Hpc]. destruct Hs as [(c & L & -> & Hs)|Hs].
    - apply in_copy_spec in Hs. destruct Hs as (Hlo & Hhi & j & Ej), Hpc as (Hc & HL & Hcl).
      pose proof (lenZ_nonneg (build r)). rewrite !lenZ_app, (piece_len (Copy c L)) by (cbn; auto).
      split; [exact Hlo|]. split; [lia|]. exists j.
      split; [apply (Z.mul_le_mono_pos_r 0 j (h_blen h)); lia|]. split; [lia|].
      unfold window. cbn [piece_bytes]. rewrite window_of_copy, Ej by (fold n; lia). reflexivity.
    - rewrite app_assoc. destruct (IH (pre ++ piece_bytes pc) p Hr Hs) as (Hlo & Hrest).
      rewrite lenZ_app in Hlo. pose proof (lenZ_nonneg (piece_bytes pc)). split; [lia|exact Hrest].
  Qed.

  (** two starts are a block length apart: in one copy they differ by a
      multiple of the block length, and a start of a later piece lies behind
      the whole of an earlier one *)
  Lemma startP_sep ps : forall pre o o', Forall piece_ok ps ->
    startP ps (lenZ pre) o = true -> startP ps (lenZ pre) o' = true -> o < o' -> o + h_blen h <= o'.
  Proof.
    induction ps as [|pc r IH]; intros pre o o' Hok Hs Hs' Hlt; [discriminate|].
    inversion Hok as [|? ? Hpc Hr]; subst.
    assert (Hlater : forall q, startP r (lenZ (pre ++ piece_bytes pc)) q = true ->
              lenZ pre + lenZ (piece_bytes pc) <= q).
    { intros q Hq. rewrite <- lenZ_app. now apply (startP_spec r). }
    apply (startP_cons pc r pre _ Hpc) in Hs, Hs'.
    destruct Hs as [(c & L & -> & Hs)|Hs], Hs' as [(c' & L' & E & Hs')|Hs'].
    - injection E as <- <-. apply in_copy_spec in Hs, Hs'.
      destruct Hs as (_ & _ & j & Ej), Hs' as (_ & _ & j' & Ej').
      pose proof (multiples_apart (h_blen h) j j' Hb). lia.
    - apply in_copy_spec in Hs. apply Hlater in Hs'. rewrite (piece_len _ Hpc) in Hs'. lia.
    - subst pc. apply in_copy_spec in Hs'. apply Hlater in Hs. rewrite (piece_len _ Hpc) in Hs. lia.
    - now apply (IH (pre ++ piece_bytes pc)).
  Qed.

  Variable ps : list piece.
  Hypothesis Hok : Forall piece_ok ps.
  Let target := build ps.
  Let size := lenZ target.
  Hypothesis Hsize : 0 < size.

  Definition start (p : Z) : bool := startP ps 0 p.
  Definition freeb (p : Z) : bool :=
    existsb (fun d => start (p - Z.of_nat d)) (seq 0 (Z.to_nat (h_blen h))).

  Lemma freeb_spec p : freeb p = true <-> exists o, start o = true /\ o <= p < o + h_blen h.
  Proof.
    clear - Hb. unfold freeb. rewrite existsb_exists. split.
    - intros (d & Hin & Hs). apply in_seq in Hin. exists (p - Z.of_nat d). split; [exact Hs|lia].
    - intros (o & Hs & Hop). exists (Z.to_nat (p - o)). split.
      + apply in_seq. lia.
      + rewrite Z2Nat.id by lia. replace (p - (p - o)) with o by lia. exact Hs.
  Qed.

  Lemma start_listed o : start o = true ->
    0 <= o /\ o + h_blen h <= size /\
    exists i, 0 <= i /\ block_len h i = h_blen h /\
      nth_error sums (Z.to_nat i) = Some (checksum1 (window h target o), strong H seed h (window h target o)).
  Proof.
    intros Hs. destruct (startP_spec ps [] o Hok Hs) as (Hlo & Hhi & j & Hj & Hjn & Hw).
    split; [exact Hlo|]. split; [exact Hhi|]. exists j. split; [exact Hj|].
    assert (Hjc : 0 <= j < h_count h) by (split; [exact Hj|apply (block_counted h n j basis_regular); lia]).
    destruct (block_layout h n j basis_regular Hjc) as (Hbl & _). rewrite Z.min_l in Hbl by lia.
    split; [exact Hbl|]. rewrite (Hsums j Hjc). unfold blk. rewrite Hbl, <- Hw. reflexivity.
  Qed.

  Notation NF := (nfz freeb).

  (** Of a copied stretch that stands at [u] in the target, everything
      between the first and the last aligned place is covered by starts: less
      than a block length is lost at either end. *)
  Lemma copy_core u c L : 0 <= u -> 0 <= L ->
    (forall p, in_copy u c L p = true -> start p = true) ->
    NF (u + L) - NF u <= 2 * (h_blen h - 1).
  Proof.
    intros Hu HL Hin.
    (* the first block boundary of the basis at or behind [c] and the last one
       at or before [c + L], as places [x] and [y] of the target; if they are in
       the wrong order no whole block fits and the stretch is shorter than 2 (b - 1) *)
    destruct (block_of (h_blen h) (c + (h_blen h - 1)) Hb) as (j0 & B0).
    destruct (block_of (h_blen h) (c + L) Hb) as (j1 & B1).
    set (x := u + (j0 * h_blen h - c)). set (y := u + (j1 * h_blen h - c)).
    destruct (Z_le_gt_dec x y) as [Hxy|Hxy].
    - assert (Hfree : NF y = NF x).
      { apply nfz_between; [lia|]. intros p Hp. apply freeb_spec.
        destruct (block_of (h_blen h) (c + p - u) Hb) as (j & Hq).
        pose proof (multiples_apart (h_blen h) j0 (j + 1) Hb ltac:(lia)).
        pose proof (multiples_apart (h_blen h) j j1 Hb ltac:(lia)).
        exists (u + (j * h_blen h - c)). split; [|lia].
        apply Hin, in_copy_spec. split; [lia|]. split; [lia|]. exists j. lia. }
      pose proof (nfz_between freeb u x ltac:(lia)). pose proof (nfz_between freeb y (u + L) ltac:(lia)). lia.
    - pose proof (nfz_between freeb u (u + L) ltac:(lia)). lia.
  Qed.

  (** [r] is what is left of the script, behind [pre] in the target *)
  Lemma script_budget r : forall pre, Forall piece_ok r ->
    (forall p, startP r (lenZ pre) p = true -> start p = true) ->
    NF (lenZ (pre ++ build r)) - NF (lenZ pre) <= ins_bytes r + 2 * (h_blen h - 1) * copies r.
  Proof.
    induction r as [|pc r IH]; intros pre Hr Hin; cbn [build].
    - rewrite app_nil_r. cbn [ins_bytes copies]. lia.
    - inversion Hr as [|? ? Hpc Hr']; subst. rewrite app_assoc.
      specialize (IH (pre ++ piece_bytes pc) Hr'
                    (fun p Hp => Hin p (proj2 (startP_cons pc r pre p Hpc) (or_intror Hp)))).
      pose proof (lenZ_nonneg pre). rewrite (lenZ_app pre), (piece_len pc Hpc) in *.
      destruct pc as [bs|c L]; cbn [ins_bytes copies].
      + pose proof (lenZ_nonneg bs). pose proof (nfz_between freeb (lenZ pre) (lenZ pre + lenZ bs) ltac:(lia)). lia.
      + destruct Hpc as (_ & HL & _). pose proof (copy_core (lenZ pre) c L ltac:(lia) HL) as Hcore.
        cbn [startP] in Hin. lapply Hcore; [lia|]. intros p Hp. apply Hin. now rewrite Hp.
  Qed.

  (** No accidental matches: wherever a full-length listed block's weak and
      strong sums equal those of a window of the target, that window *is* an
      unedited block of the basis standing in a [Copy] piece.  (High-entropy
      data: the sums of distinct windows differ.) *)
  Definition no_accident : Prop :=
    forall p i, 0 <= p -> p + h_blen h <= size -> 0 <= i -> block_len h i = h_blen h ->
      nth_error sums (Z.to_nat i) = Some (checksum1 (window h target p), strong H seed h (window h target p)) ->
      start p = true.

  Theorem edit_bound_script h' toks tr :
    no_accident ->
    send_one H seed chunk h sums target = SOk h' toks tr ->
    lits toks <= ins_bytes ps + 2 * (h_blen h - 1) * copies ps.
  Proof.
    intros Hna Hsend.
    assert (Hne : sums <> []).
    { pose proof (count_pos h n Hn basis_regular) as Hcp. intros E. pose proof (Hsums 0 ltac:(lia)) as E0. now rewrite E in E0. }
    assert (Hrem' : 0 <= h_rem h <= h_blen h).
    { pose proof (Z.mod_pos_bound n (h_blen h) ltac:(lia)). lia. }
    assert (Hl : lits toks <= nfz freeb size).
    { apply (send_one_lits H seed chunk Hchunk h sums target Hb Hrem' start) with (h' := h') (tr := tr);
        [exact start_listed|exact Hna|exact (fun o o' => startP_sep ps [] o o' Hok)|exact freeb_spec
        |exact Hne|exact Hsize|exact Hsend]. }
    pose proof (script_budget ps [] Hok (fun p Hp => Hp)) as Hbud.
    cbn [app] in Hbud. rewrite lenZ_nil, nfz_0 in Hbud. fold target size in Hl, Hbud. lia.
  Qed.
  (** [no_accident] is decidable by enumeration (used for the concrete
      instance in Properties/C16.v and, extracted, by the harness component
      editbound).  One pass over the suffixes of the target; the window's sums
      are computed once per offset. *)
  Definition sum_matchb (e : sumbuf) (s1 : Z) (s2 : list Z) : bool :=
    (fst e =? s1) && list_eqb (snd e) s2.
  Definition check_at (p : Z) (w : list Z) : bool :=
    let w1 := checksum1 w in
    let w2 := strong H seed h w in
    forallb (fun ie => if (block_len h (Z.of_nat (fst ie)) =? h_blen h) && sum_matchb (snd ie) w1 w2
                       then start p else true)
            (combine (seq 0 (length sums)) sums).
  Fixpoint na_scan (k : nat) (cur : list Z) (p : Z) : bool :=
    match k with
    | O => true
    | S k' => check_at p (takeZ (h_blen h) cur) && na_scan k' (tl cur) (p + 1)
    end.
  Definition no_accident_check : bool :=
    na_scan (Z.to_nat (size - h_blen h + 1)) target 0.

  Lemma check_at_sound p w i : check_at p w = true -> block_len h (Z.of_nat i) = h_blen h ->
    nth_error sums i = Some (checksum1 w, strong H seed h w) -> start p = true.
  Proof.
    intros Hc Hbl Hnth. unfold check_at in Hc. rewrite forallb_forall in Hc.
    specialize (Hc _ (in_combine_seq sums 0 i _ Hnth)). unfold sum_matchb in Hc. cbn [fst snd Nat.add] in Hc.
    rewrite Hbl, !Z.eqb_refl, list_eqb_refl in Hc. exact Hc.
  Qed.

  (* [Proof using Type]: the check is run on concrete inputs (C16), where the
     hypotheses of the section are not at hand *)
  Lemma na_scan_spec k : forall p, 0 <= p -> na_scan k (dropZ p target) p = true ->
    forall q, p <= q < p + Z.of_nat k -> check_at q (window h target q) = true.
  Proof using Type.
    induction k as [|k IH]; intros p Hp Hs q Hq; [lia|].
    apply andb_true_iff in Hs. destruct Hs as [Hhere Hr]. rewrite tl_dropZ in Hr by exact Hp.
    destruct (Z.eq_dec q p) as [->|Hne]; [exact Hhere|]. apply (IH (p + 1)); [lia|exact Hr|lia].
  Qed.

  Lemma no_accident_by_check : no_accident_check = true -> no_accident.
  Proof using Type.
    intros Hc p i Hp Hps Hi Hbl Hnth. unfold no_accident_check in Hc. rewrite <- (dropZ_0 target) in Hc at 1.
    apply (check_at_sound p (window h target p) (Z.to_nat i)); [|now rewrite Z2Nat.id|exact Hnth].
    apply (na_scan_spec _ 0 (Z.le_refl 0) Hc). lia.
  Qed.
End EditScript.

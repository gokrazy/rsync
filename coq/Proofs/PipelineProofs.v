(** No deadlock in the generator / sender / receiver pipeline: every step keeps [inv] ([inv_step]), a
    state that satisfies it is final or can step whatever the two capacities are ([final_or_step]),
    and every step lowers [measure], which therefore bounds the length of any schedule. *)
From Coq Require Import List Arith Lia.
From RV Require Import Model.Pipeline.
Import ListNotations.

(** [inv] survives every step that leaves the sender's plan and position alone, moves no request
    byte past the sender and does not start an answer *)
Lemma inv_same st st' :
  inv st -> g_left st' + ch_a st' = g_left st + ch_a st ->
  s_plan st' = s_plan st -> s_read st' = s_read st -> (0 < s_write st' -> 0 < s_write st) ->
  inv st'.
Proof.
  unfold inv. intros (I1 & I2 & I3 & I4) E -> -> W. repeat split; try assumption; [lia|auto].
Qed.

(** the sender reads a request byte that the generator or channel A gives up *)
Lemma advance_inv st g a :
  inv st -> S (g + a) = g_left st + ch_a st -> inv (advance st g a).
Proof.
  intros I E. unfold advance. destruct (s_plan st) as [|[r d] rest] eqn:P; [exact I|].
  destruct I as (I1 & I2 & I3 & _). rewrite P in *.
  change (sum_r ((r, d) :: rest)) with (r + sum_r rest) in I1.
  pose proof (Forall_inv_tail I2) as Hrest.
  unfold inv. destruct (Nat.eqb_spec (S (s_read st)) r) as [Q|Q]; cbn [g_left ch_a s_plan s_read s_write].
  - (* the request is complete: on to the next one *)
    repeat split; [lia|exact Hrest|].
    destruct Hrest as [|[r' d'] rest' Hr' _]; [reflexivity|exact Hr'].
  - change (sum_r ((r, d) :: rest)) with (r + sum_r rest). repeat split; [lia|exact I2|lia|lia].
Qed.

Lemma inv_step ca cb st st' : inv st -> step ca cb st st' -> inv st'.
Proof.
  intros I S. destruct S.
  (* gen_rendezvous, snd_get *)
  2, 3: apply advance_inv; [exact I|lia].
  all: apply (inv_same st _ I); cbn [g_left ch_a s_plan s_read s_write]; trivial; lia.
Qed.

Lemma inv_init plan : Forall (fun p => 1 <= fst p) plan -> inv (init plan).
Proof.
  intros F. unfold inv, init. cbn [g_left ch_a s_plan s_read s_write]. repeat split; [lia|exact F|].
  destruct F as [|[r d] rest Hr _]; [reflexivity|exact Hr].
Qed.

(** no circular wait, for all capacities including zero *)
Lemma final_or_step ca cb st : inv st -> final st \/ exists st', step ca cb st st'.
Proof.
  intros (I1 & _ & I3 & _).
  destruct (Nat.eq_dec (s_write st) 0) as [W|W].
  - destruct (s_plan st) as [|[r d] rest] eqn:P.
    + (* nothing left to read: only channel B can hold anything *)
      cbn [sum_r fold_right] in I1.
      destruct (Nat.eq_dec (ch_b st) 0) as [B|B].
      * left. unfold final. repeat split; try assumption; lia.
      * right. eexists. apply rcv_get. lia.
    + right. destruct (Nat.eq_dec (ch_a st) 0) as [A|A].
      * assert (G : 0 < g_left st).
        { cbn [sum_r fold_right fst] in I1. lia. }
        destruct (Nat.eq_dec ca 0) as [C|C].
        -- eexists. apply gen_rendezvous; try assumption. rewrite P. discriminate.
        -- eexists. apply gen_put; lia.
      * eexists. apply snd_get; try assumption; [rewrite P; discriminate|lia].
  - right. destruct (Nat.eq_dec cb 0) as [C|C].
    + eexists. apply snd_rendezvous; [assumption|lia].
    + destruct (Nat.lt_ge_cases (ch_b st) cb) as [L|L].
      * eexists. apply snd_put; [lia|assumption].
      * eexists. apply rcv_get. lia.
Qed.

Lemma progress ca cb st : inv st -> ~ final st -> exists st', step ca cb st st'.
Proof. intros I NF. destruct (final_or_step ca cb st I) as [F|S]; [contradiction|exact S]. Qed.

Lemma advance_measure st g a :
  s_plan st <> [] ->
  measure (advance st g a) = 3 * g + 2 * a + 2 * sum_d (s_plan st) + ch_b st.
Proof.
  intros NE. unfold advance. destruct (s_plan st) as [|[r d] rest] eqn:P; [contradiction|].
  destruct (Nat.eqb (S (s_read st)) r); unfold measure; cbn [g_left ch_a s_plan s_write ch_b sum_d fold_right snd]; lia.
Qed.

Lemma measure_decreases ca cb st st' : step ca cb st st' -> measure st' < measure st.
Proof.
  intros S. destruct S.
  (* gen_rendezvous, snd_get *)
  2, 3: rewrite advance_measure by assumption.
  all: unfold measure; cbn [g_left ch_a s_plan s_write ch_b]; lia.
Qed.

Lemma steps_bounded ca cb n st st' : steps ca cb n st st' -> n + measure st' <= measure st.
Proof.
  induction 1 as [|n st st1 st2 S _ IH]; [lia|]. apply measure_decreases in S. lia.
Qed.

Lemma steps_inv ca cb n st st' : inv st -> steps ca cb n st st' -> inv st'.
Proof. intros I S. induction S as [|n st st1 st2 S1 _ IH]; [exact I|]. apply IH. eapply inv_step; eauto. Qed.

Theorem no_deadlock ca cb n st0 st :
  inv st0 -> steps ca cb n st0 st ->
  n <= measure st0 /\ (final st \/ exists st', step ca cb st st').
Proof.
  intros I S. split.
  - apply steps_bounded in S. lia.
  - apply final_or_step. exact (steps_inv _ _ _ _ _ I S).
Qed.

(** The options a client re-serialises for the server parse there to the same transfer options, with the
    roles complementary (C14 [server_options_roundtrip], from [roundtrip_all]): decided by evaluation over
    [transfer_vectors].  Most of the file is the checker that makes this sweep small, with its soundness
    proof: the check depends on a state through a few bits ([key]) and is run once per key, and the sub-lists
    of a token list share the parse of their common tokens ([explore]).  At the end, the definitions with
    which C14 compares the generated accessor maps and switch arms with what the model takes for granted. *)
From Coq Require Import ZArith String List Bool FMapPositive Lia.
From RV Require Import Model.Popt Model.Flist Gen.OptTable Gen.OptMap.
Import ListNotations.
Open Scope string_scope.

(** [transfer_vectors] below: every sub-list of the preserve options, in command-line order (4096
    argument vectors), and every sub-list of the behaviour options after each of three common preserve
    prefixes (48 vectors) *)
Definition preserve_tokens : list string :=
  ["-a"; "-r"; "-l"; "-p"; "-t"; "-g"; "-o"; "-D"; "--devices"; "--specials";
   "--no-devices"; "--no-specials"].
Definition behaviour_tokens : list string := ["-c"; "-I"; "-n"; "--delete"].

Fixpoint subsets {A} (l : list A) : list (list A) :=
  match l with
  | [] => [[]]
  | x :: r => let s := subsets r in map (cons x) s ++ s
  end.

Fixpoint lists_eqb {A} (e : A -> A -> bool) (a b : list A) : bool :=
  match a, b with
  | [], [] => true
  | x :: a', y :: b' => e x y && lists_eqb e a' b'
  | _, _ => false
  end.

Lemma lists_eqb_eq {A} (e : A -> A -> bool) : (forall x y, e x y = true -> x = y) ->
  forall a b, lists_eqb e a b = true -> a = b.
Proof.
  intros He. induction a as [|x a IH]; intros [|y b]; cbn [lists_eqb]; try discriminate; [reflexivity|].
  intros H. apply andb_prop in H. destruct H as [H1 H2]. now rewrite (He x y H1), (IH b H2).
Qed.

(** what the server makes of the re-serialised options *)
Definition server_view (st : ostate) : ostate + perr :=
  parse_arguments (server_options st ++ ["."; "path"]).

(** The round trip for a client state [st] (with am_sender already set when
    the client is the sender: push / local copy). *)
Definition agrees (as_sender : bool) (st : ostate) : bool :=
  match server_view st with
  | inr _ => false
  | inl st' =>
      lists_eqb Bool.eqb (wire_view st') (wire_view st) &&
      negb (getf st' "am_server" =? 0)%Z &&
      Bool.eqb (negb (getf st' "am_sender" =? 0)%Z) (negb as_sender)
  end.

Lemma agrees_sound as_sender st : agrees as_sender st = true ->
  exists st' : ostate, server_view st = inl st' /\ wire_view st' = wire_view st /\
    (getf st' "am_server" =? 0)%Z = false /\ negb (getf st' "am_sender" =? 0)%Z = negb as_sender.
Proof.
  unfold agrees. destruct (server_view st) as [st'|e]; [|discriminate]. intros A.
  apply andb_true_iff in A. destruct A as [A H3]. apply andb_true_iff in A. destruct A as [H1 H2].
  exists st'. split; [reflexivity|]. split; [exact (lists_eqb_eq _ Bool.eqb_prop _ _ H1)|].
  split; [apply negb_true_iff; exact H2|apply Bool.eqb_prop; exact H3].
Qed.

(** ** the round trip depends on the state through few bits

    ServerOptions reads the state through the accessors only, and an
    accessor only tests a field for zero; [wire_view] tests fields that
    accessors read.  [key] lists those bits ("" is the field of an accessor
    the table does not know). *)
Definition probe_fields : list string := "" :: map snd opt_accessors.
Definition key (st : ostate) : list bool := map (fun f => getf st f =? 0)%Z probe_fields.

Lemma key_getf st1 st2 f : key st1 = key st2 -> In f probe_fields ->
  (getf st1 f =? 0)%Z = (getf st2 f =? 0)%Z.
Proof. intros E. exact (ext_in_map E f). Qed.

Lemma accessor_field_in a : forall l, In (accessor_field a l) ("" :: map snd l).
Proof.
  induction l as [|[n f] l IH]; cbn [accessor_field map snd]; [now left|].
  destruct (String.eqb n a); [right; now left|]. destruct IH as [E|IH]; [now left|right; now right].
Qed.

Lemma key_acc st1 st2 a : key st1 = key st2 -> acc st1 a = acc st2 a.
Proof.
  intros E. unfold acc. f_equal. exact (key_getf st1 st2 _ E (accessor_field_in a opt_accessors)).
Qed.

Lemma server_items_key st1 st2 : key st1 = key st2 ->
  forall items bundle out, server_items items st1 bundle out = server_items items st2 bundle out.
Proof.
  intros E.
  assert (C : forall cs, conds_hold st1 cs = conds_hold st2 cs).
  { induction cs as [|[neg a] cs IH]; [reflexivity|]. cbn [conds_hold]. now rewrite IH, (key_acc st1 st2 a E). }
  induction items as [|[[cs kind] text] items IH]; intros bundle out; [reflexivity|].
  cbn [server_items]. rewrite C. destruct (negb (conds_hold st2 cs)); [apply IH|].
  destruct kind as [|[|k]]; apply IH.
Qed.

Lemma wire_view_acc st : wire_view st =
  map (acc st) ["Recurse"; "PreserveLinks"; "PreservePerms"; "PreserveMTimes"; "PreserveGid"; "PreserveUid";
                "PreserveDevices"; "PreserveSpecials"; "AlwaysChecksum"; "IgnoreTimes"; "DryRun"; "DeleteMode"].
Proof. reflexivity. Qed.

Lemma wire_view_key st1 st2 : key st1 = key st2 -> wire_view st1 = wire_view st2.
Proof.
  intros E. rewrite !wire_view_acc. apply map_ext. intros a. exact (key_acc st1 st2 a E).
Qed.

Lemma agrees_key as_sender st1 st2 : key st1 = key st2 -> agrees as_sender st1 = agrees as_sender st2.
Proof.
  intros E. unfold agrees, server_view, server_options.
  now rewrite (server_items_key st1 st2 E), (wire_view_key st1 st2 E).
Qed.

Lemma lookup_set_field k v f : forall l,
  lookup f (set_field k v l) = if String.eqb f k then v else lookup f l.
Proof.
  induction l as [|[k' v'] l IH]; cbn [set_field lookup]; [reflexivity|].
  destruct (String.eqb k k') eqn:K; cbn [lookup].
  - apply String.eqb_eq in K. subst k'. now destruct (String.eqb f k).
  - rewrite IH. destruct (String.eqb f k') eqn:F; [|reflexivity].
    apply String.eqb_eq in F. subst k'. now rewrite String.eqb_sym, K.
Qed.

Lemma key_setf st1 st2 k v : key st1 = key st2 -> key (setf st1 k v) = key (setf st2 k v).
Proof.
  intros E. apply map_ext_in. intros f Hf. unfold getf, setf. cbn [o_fields].
  rewrite !lookup_set_field. destruct (String.eqb f k); [reflexivity|exact (key_getf st1 st2 f E Hf)].
Qed.

(** both roles of the client: receiver (pull) and sender (push / local copy) *)
Definition both (st : ostate) : bool := agrees false st && agrees true (setf st "am_sender" 1).

Lemma both_sound st : both st = true ->
  agrees false st = true /\ agrees true (setf st "am_sender" 1) = true.
Proof. unfold both. apply andb_prop. Qed.

Lemma both_key st1 st2 : key st1 = key st2 -> both st1 = both st2.
Proof.
  intros E. unfold both. now rewrite (agrees_key false _ _ E), (agrees_key true _ _ (key_setf _ _ _ _ E)).
Qed.

(** ** a token that parses on its own is processed the same in front of any rest

    If it needed an argument from the rest, parsing it alone would fail with
    ENoArg; so success alone means nothing is taken from the rest. *)
Lemma short_bundle_alone n : forall chars st st1 r,
  short_bundle n chars [] st = inl (st1, r) ->
  r = [] /\ forall args, short_bundle n chars args st = inl (st1, args).
Proof.
  induction n as [|n IH]; intros chars st st1 r; [discriminate|].
  cbn [short_bundle]. destruct chars as [|c chars]; [now intros [= <- <-]|].
  destruct (find_short _ opt_table) as [row|]; [|discriminate].
  destruct (needs_arg row).
  - destruct (rest_chars _); [discriminate|]. cbn [negb].
    destruct (store row _ st) as [[st2 code]|]; [|discriminate].
    destruct (code =? 0)%Z; [now intros [= <- <-]|].
    destruct (special code _ st2); [now intros [= <- <-]|discriminate].
  - destruct (starts_with "=" _); [discriminate|].
    destruct (store row "" st) as [[st2 code]|]; [|discriminate].
    destruct (if (code =? 0)%Z then _ else _); [apply IH|discriminate].
Qed.

(* fuel 2: one round for the token, one to return at the empty list *)
Lemma parse_loop_cons a st st' :
  parse_loop 2 [a] st = inl st' ->
  forall f rest, parse_loop (S f) (a :: rest) st = parse_loop f rest st'.
Proof.
  cbn [parse_loop].
  destruct (String.eqb a ""); [discriminate|].
  destruct (negb (starts_with "-" a) || String.eqb a "-"); [now intros [= <-]|].
  destruct (cut_eq a "") as [before long_arg].
  destruct (find_long _ opt_table) as [row|].
  - destruct (needs_arg row).
    + destruct long_arg as [v|]; [destruct (String.eqb v "")|]; try discriminate. cbn [negb].
      destruct (store row v st) as [[st1 code]|]; [|discriminate].
      destruct (if (code =? 0)%Z then _ else _); [now intros [= <-]|discriminate].
    + destruct long_arg as [v|]; [destruct (String.eqb v ""); [|discriminate]|];
        (destruct (store row "" st) as [[st1 code]|]; [|discriminate]);
        (destruct (if (code =? 0)%Z then _ else _); [now intros [= <-]|discriminate]).
  - destruct (starts_with "-" _); [discriminate|].
    destruct (short_bundle _ _ [] st) as [[st1 r]|] eqn:B; [|discriminate].
    destruct (short_bundle_alone _ _ _ _ _ B) as [-> B']. intros [= <-] f rest. now rewrite B'.
Qed.

Lemma length_lt_total_len args : (length args < total_len args)%nat.
Proof.
  induction args as [|a r IH]; [exact Nat.lt_0_1|].
  change (total_len (a :: r)) with (String.length a + total_len r + 2)%nat. cbn [length]. lia.
Qed.

(** what ParseArguments does with the state the loop returns *)
Definition after_loop (st : ostate) : ostate + perr :=
  if (0 <? getf st "version_opt_cnt")%Z then inr (EExit 0) else inl (finish st).

Lemma parse_arguments_after args st :
  parse_loop (total_len args) args init_state = inl st -> parse_arguments args = after_loop st.
Proof. intros L. unfold parse_arguments. now rewrite L. Qed.

Definition ostate_eqb (a b : ostate) : bool :=
  lists_eqb (fun x y => (snd x =? snd y)%Z && String.eqb (fst x) (fst y)) (o_fields a) (o_fields b) &&
  lists_eqb String.eqb (o_filters a) (o_filters b) && lists_eqb String.eqb (o_remaining a) (o_remaining b).

Lemma ostate_eqb_eq a b : ostate_eqb a b = true -> a = b.
Proof.
  destruct a as [f1 l1 r1], b as [f2 l2 r2]. unfold ostate_eqb. cbn [o_fields o_filters o_remaining].
  intros H. apply andb_prop in H. destruct H as [H Hr]. apply andb_prop in H. destruct H as [Hf Hl].
  f_equal; [revert Hf|revert Hl|revert Hr]; apply lists_eqb_eq; try (intros x y; apply String.eqb_eq).
  intros [k v] [k' v'] H. cbn [fst snd] in H. apply andb_prop in H. destruct H as [Hv Hk].
  now rewrite (proj1 (Z.eqb_eq _ _) Hv), (proj1 (String.eqb_eq _ _) Hk).
Qed.

(** ** checking a property of every parsed state, once per key

    [p] is run for a state only if no state with the same key went through
    it before.  The keys seen are kept in a map indexed by the key read as a
    binary number; the key itself is stored, so the index need not be
    injective. *)
Section Once.
Variable p : ostate -> bool.
Hypothesis p_key : forall st1 st2, key st1 = key st2 -> p st1 = p st2.

Definition seen := PositiveMap.t (list bool).

Definition index (k : list bool) : positive :=
  fold_left (fun i (b : bool) => if b then i~1 else i~0)%positive k 1%positive.

Definition known (k : list bool) (s : seen) : bool :=
  match PositiveMap.find (index k) s with Some k' => lists_eqb Bool.eqb k k' | None => false end.

Definition good (s : seen) : Prop :=
  forall i k st, PositiveMap.find i s = Some k -> key st = k -> p st = true.

Lemma good_empty : good (PositiveMap.empty _).
Proof. intros i k st F. now rewrite PositiveMap.gempty in F. Qed.

Lemma good_known s st : good s -> known (key st) s = true -> p st = true.
Proof.
  unfold known. intros G K. destruct (PositiveMap.find _ s) as [k'|] eqn:F; [|discriminate].
  exact (G _ _ st F (lists_eqb_eq _ Bool.eqb_prop _ _ K)).
Qed.

Lemma good_add s st i : good s -> p st = true -> good (PositiveMap.add i (key st) s).
Proof.
  intros G A j k st0. rewrite PositiveMapAdditionalFacts.gsspec.
  destruct (PositiveMap.E.eq_dec j i); [|apply G]. intros [= <-] E. now rewrite (p_key st0 st E).
Qed.

Definition visit (r : ostate + perr) (s : seen) : option seen :=
  match r with
  | inr _ => Some s
  | inl st =>
      let k := key st in
      if known k s then Some s
      else if p st then Some (PositiveMap.add (index k) k s) else None
  end.

Lemma visit_sound r s s' : good s -> visit r s = Some s' ->
  good s' /\ forall st, r = inl st -> p st = true.
Proof.
  intros G. destruct r as [st|e]; cbn [visit]; [|intros [= <-]; split; [exact G|discriminate]].
  destruct (known (key st) s) eqn:K.
  - intros [= <-]. split; [exact G|]. intros st0 [= <-]. exact (good_known s st G K).
  - destruct (p st) eqn:A; [|discriminate].
    (* the index is made a variable first: injection would evaluate it *)
    generalize (index (key st)). intros i [= <-].
    split; [exact (good_add s st i G A)|now intros st0 [= <-]].
Qed.

(** a list of argument vectors, each parsed from scratch *)
Fixpoint sweep (vs : list (list string)) (s : seen) : option seen :=
  match vs with
  | [] => Some s
  | args :: r => match visit (parse_arguments args) s with Some s' => sweep r s' | None => None end
  end.

Lemma sweep_sound vs : forall s s', good s -> sweep vs s = Some s' ->
  forall args st, In args vs -> parse_arguments args = inl st -> p st = true.
Proof.
  induction vs as [|v vs IH]; intros s s' G S args st Hin P; [destruct Hin|].
  cbn [sweep] in S. destruct (visit (parse_arguments v) s) as [s1|] eqn:V; [|discriminate].
  destruct (visit_sound _ _ _ G V) as [G1 H]. destruct Hin as [->|Hin]; [exact (H st P)|].
  exact (IH s1 s' G1 S args st Hin P).
Qed.

(** [p] holds of what ParseArguments makes of every sub-list of [toks] when
    the loop starts in [st] *)
Definition covered (toks : list string) (st : ostate) : Prop :=
  forall v f, In v (subsets toks) -> (length v < f)%nat ->
    exists st1, parse_loop f v st = inl st1 /\ forall st2, after_loop st1 = inl st2 -> p st2 = true.

Lemma covered_nil st : (forall st2, after_loop st = inl st2 -> p st2 = true) -> covered [] st.
Proof. intros H v [|f] [<-|[]] L; [inversion L|]. now exists st. Qed.

Lemma covered_cons a r st st1 :
  parse_loop 2 [a] st = inl st1 -> covered r st1 -> covered r st -> covered (a :: r) st.
Proof.
  intros A C1 C v f Hin L. cbn [subsets] in Hin.
  destruct (in_app_or _ _ _ Hin) as [Hv|Hv]; [|exact (C v f Hv L)].
  apply in_map_iff in Hv. destruct Hv as (w & <- & Hw).
  destruct f as [|f]; [inversion L|]. rewrite (parse_loop_cons _ _ _ A).
  apply (C1 w f Hw). now apply Nat.succ_lt_mono.
Qed.

(** every sub-list of [toks] parsed from [st]: the state after a token is
    computed once for all sub-lists that contain it, and a token that leaves
    the state as it was is passed over, since the sub-lists with it end in
    the states of those without *)
Fixpoint explore (toks : list string) (st : ostate) (s : seen) : option seen :=
  match toks with
  | [] => visit (after_loop st) s
  | a :: r =>
      match parse_loop 2 [a] st with
      | inr _ => None
      | inl st1 =>
          match (if ostate_eqb st1 st then Some s else explore r st1 s) with
          | Some s' => explore r st s'
          | None => None
          end
      end
  end.

Lemma explore_sound toks : forall st s s', good s -> explore toks st s = Some s' ->
  good s' /\ covered toks st.
Proof.
  induction toks as [|a r IH]; intros st s s' G X; cbn [explore] in X.
  - destruct (visit_sound _ _ _ G X) as [G' H]. split; [exact G'|exact (covered_nil st H)].
  - destruct (parse_loop 2 [a] st) as [st1|] eqn:A; [|discriminate].
    destruct (ostate_eqb st1 st) eqn:Q.
    + apply ostate_eqb_eq in Q. subst st1. destruct (IH _ _ _ G X) as [G' C].
      split; [exact G'|exact (covered_cons a r st st A C C)].
    + destruct (explore r st1 s) as [s1|] eqn:X1; [|discriminate].
      destruct (IH _ _ _ G X1) as [G1 C1]. destruct (IH _ _ _ G1 X) as [G' C].
      split; [exact G'|exact (covered_cons a r st st1 A C1 C)].
Qed.

(** [p] holds of every parse of a sub-list of [toks] or of a vector of [vs], decided *)
Definition checked (toks : list string) (vs : list (list string)) : bool :=
  match explore toks init_state (PositiveMap.empty _) with
  | Some s => match sweep vs s with Some _ => true | None => false end
  | None => false
  end.

Lemma checked_sound toks vs : checked toks vs = true ->
  forall args st, In args (subsets toks ++ vs) -> parse_arguments args = inl st -> p st = true.
Proof.
  unfold checked. destruct (explore toks init_state _) as [s|] eqn:X; [|discriminate].
  destruct (sweep vs s) as [s'|] eqn:S; [intros _|discriminate].
  destruct (explore_sound _ _ _ _ good_empty X) as [G C].
  intros args st Hin P. destruct (in_app_or _ _ _ Hin) as [Ha|Hb]; [|exact (sweep_sound _ _ _ G S args st Hb P)].
  destruct (C args _ Ha (length_lt_total_len args)) as (st1 & L & H1).
  rewrite (parse_arguments_after args st1 L) in P. exact (H1 st P).
Qed.
End Once.

Definition transfer_vectors : list (list string) :=
  (subsets preserve_tokens ++
   flat_map (fun pre : list string => map (fun s : list string => (pre ++ s)%list) (subsets behaviour_tokens))
            [[]; ["-rlt"]; ["-a"]])%list.

Lemma roundtrip_all args st :
  In args transfer_vectors -> parse_arguments args = inl st -> both st = true.
Proof. unfold transfer_vectors. apply (checked_sound both both_key). vm_compute. reflexivity. Qed.

(** file-list options as each end derives them *)
Definition fopts_of (st : ostate) : fopts :=
  mkFopts (negb (getf st "preserve_uid" =? 0)%Z) (negb (getf st "preserve_gid" =? 0)%Z)
          (negb (getf st "preserve_links" =? 0)%Z) (negb (getf st "preserve_devices" =? 0)%Z)
          (negb (getf st "preserve_specials" =? 0)%Z) (negb (getf st "always_checksum" =? 0)%Z).

Lemma wire_view_fopts st st' : wire_view st' = wire_view st -> fopts_of st' = fopts_of st.
Proof.
  (* of the twelve entries ([wire_view_acc]): links, gid, uid, devices, specials, checksum *)
  unfold wire_view, fopts_of. intros [= _ L _ _ G U D S C _ _ _]. now rewrite L, G, U, D, S, C.
Qed.

(** ** both ends build the receiver's TransferOpts from the same accessors *)
Fixpoint assoc (k : string) (l : list (string * string)) : option string :=
  match l with
  | [] => None
  | (k', v) :: r => if String.eqb k k' then Some v else assoc k r
  end.

Definition wire_transfer_fields : list string :=
  ["AlwaysChecksum"; "DeleteMode"; "DryRun"; "IgnoreTimes"; "PreserveDevices"; "PreserveGid";
   "PreserveLinks"; "PreservePerms"; "PreserveSpecials"; "PreserveTimes"; "PreserveUid"].

Definition optmap_field_ok (f : string) : bool :=
  match assoc f optmap_client, assoc f optmap_server with
  | Some a, Some b => String.eqb a b
  | _, _ => false
  end.

(** the accessor names used in those maps are the expected fields *)
Definition expected_accessor_fields : list (string * string) :=
  [("AlwaysChecksum", "always_checksum"); ("DeleteMode", "delete_mode"); ("DryRun", "dry_run");
   ("IgnoreTimes", "ignore_times"); ("PreserveDevices", "preserve_devices"); ("PreserveGid", "preserve_gid");
   ("PreserveLinks", "preserve_links"); ("PreservePerms", "preserve_perms"); ("PreserveSpecials", "preserve_specials");
   ("PreserveMTimes", "preserve_mtimes"); ("PreserveUid", "preserve_uid"); ("Recurse", "recurse");
   ("Sender", "am_sender"); ("Server", "am_server")].

(** the hand-modelled switch arms are the ones in the source (fingerprints of
    the arm bodies; a changed arm re-opens this obligation) *)
Definition hand_modelled_arms : list (Z * string) :=
  [(86, "1db5d7c8db1b8e77"); (c_OPT_HELP, "5eaf9b46ae93d339"); (c_OPT_SENDER, "3427b988d9400ca9"); (c_OPT_DAEMON, "91416278d1acecf0");
   (c_OPT_FILTER, "07b85f581477f558"); (c_OPT_EXCLUDE, "05671dcdc5cedd46"); (c_OPT_INCLUDE, "96a06f65f5ffcbe9")]%Z.

Fixpoint strings_eqb (a b : list string) : bool :=
  match a, b with
  | [], [] => true
  | x :: a', y :: b' => String.eqb x y && strings_eqb a' b'
  | _, _ => false
  end.


(* 4144 vectors: nothing downstream should unfold the list by accident *)
Global Opaque transfer_vectors.

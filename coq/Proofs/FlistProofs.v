(** The file-list decoder reads back what a conforming encoder wrote.  [enc_entry] is a concatenation
    of fields and [recv_entry] a chain of readers: there is one lemma per reader, of the form
    [reader (field ++ tl) = Some (value, tl)], and the entry is decoded by rewriting with them in turn.
    For an optional field the lemma keeps the decoder's [if] around the reader, so the goal is never split.
    The second half is about the order of the list: [lex_ltb] is a strict total order, [sort_entries] sorts
    by it, and a strictly sorted list is determined by its elements (C15's index agreement). *)
From Coq Require Import ZArith List Bool Lia Permutation.
From RV Require Import Model.Bytes Model.Flist Proofs.BytesProofs Gen.Consts.
Import ListNotations.
Open Scope Z_scope.

(* 2^8 cases, each by evaluation; one equation between lists keeps the goal that is split small *)
Lemma flags_decode c :
  map (has_flag (flags_of c))
    [c_XMIT_SAME_NAME; c_XMIT_LONG_NAME; c_XMIT_SAME_TIME; c_XMIT_SAME_MODE;
     c_XMIT_SAME_UID; c_XMIT_SAME_GID; c_XMIT_SAME_RDEV_pre28]
  = [0 <? ch_l1 c; ch_long c; ch_same_time c; ch_same_mode c;
     ch_same_uid c; ch_same_gid c; ch_same_rdev c].
Proof.
  destruct c as [l1 lg st sm su sg sr tp]. unfold flags_of.
  cbn [ch_l1 ch_long ch_same_time ch_same_mode ch_same_uid ch_same_gid ch_same_rdev ch_top].
  destruct (0 <? l1), lg, st, sm, su, sg, sr, tp; vm_compute; reflexivity.
Qed.

Lemma rd8_cons b s : rd8 (b :: s) = Some (b, s).
Proof. reflexivity. Qed.

Definition i32 (v : Z) : Prop := -2147483648 <= v < 2147483648.

Record entry_ok (o : fopts) (e : fentry) : Prop := {
  ok_clean : path_clean (e_name e) = e_name e;
  ok_namelen : lenZ (e_name e) < c_PATH_MAX;
  ok_len : -9223372036854775808 <= e_len e < 9223372036854775808;
  ok_mtime : i32 (e_mtime e); ok_mode : i32 (e_mode e);
  ok_uid : i32 (e_uid e); ok_gid : i32 (e_gid e); ok_rdev : i32 (e_rdev e);
  ok_link : lenZ (e_link e) < 2147483648;
  (* fields that are not transmitted under [o] carry their zero value *)
  canon_uid : o_uid o = false -> e_uid e = 0;
  canon_gid : o_gid o = false -> e_gid e = 0;
  canon_rdev : receiver_has_rdev o (e_mode e) = false -> e_rdev e = 0;
  canon_link : o_links o && is_link (e_mode e) = false -> e_link e = [];
  canon_csum : if o_checksum o then lenZ (e_csum e) = 16 else e_csum e = []
}.

(** what a conforming sender may choose for [e] after [prev] *)
Record choice_ok (prev e : fentry) (c : choice) : Prop := {
  co_l1 : 0 <= ch_l1 c <= 255;
  co_l1_name : ch_l1 c <= lenZ (e_name e);
  co_l1_prev : ch_l1 c <= lenZ (e_name prev);
  co_prefix : takeZ (ch_l1 c) (e_name prev) = takeZ (ch_l1 c) (e_name e);
  co_short : ch_long c = false -> lenZ (e_name e) - ch_l1 c <= 255;
  co_time : ch_same_time c = true -> e_mtime e = e_mtime prev;
  co_mode : ch_same_mode c = true -> e_mode e = e_mode prev;
  co_uid : ch_same_uid c = true -> e_uid e = e_uid prev;
  co_gid : ch_same_gid c = true -> e_gid e = e_gid prev;
  co_rdev : ch_same_rdev c = true -> e_rdev e = e_rdev prev;
  co_nonzero : flags_of c <> 0
}.

Lemma rd_l1_enc (present : bool) l1 tl : (present = false -> l1 = 0) ->
  (if present then rd8 ((if present then [l1] else []) ++ tl)
   else Some (0, (if present then [l1] else []) ++ tl)) = Some (l1, tl).
Proof. intros Hp. destruct present; [reflexivity|now rewrite Hp]. Qed.

Lemma rd_namelen_enc (long : bool) n tl : i32 n ->
  (if long then rd32 ((if long then le32 n else [n]) ++ tl)
   else rd8 ((if long then le32 n else [n]) ++ tl)) = Some (n, tl).
Proof. intros Hn. destruct long; [now apply rd32_le32|reflexivity]. Qed.

Lemma name_fits l1 n :
  0 <= n < c_PATH_MAX - l1 -> (n <? 0) || (c_PATH_MAX - l1 <=? n) = false.
Proof. intros H. apply orb_false_iff. split; [apply Z.ltb_ge|apply Z.leb_gt]; lia. Qed.

Lemma inherit_prefix l1 (prev name : list Z) :
  l1 <= lenZ prev -> takeZ l1 prev = takeZ l1 name -> inherit l1 prev ++ dropZ l1 name = name.
Proof.
  intros Hl Hp. unfold inherit.
  replace (Z.to_nat (l1 - lenZ prev)) with 0%nat by lia. rewrite app_nil_r.
  rewrite Hp. apply takeZ_app_dropZ.
Qed.

Lemma opt_field_enc present same lastv v tl :
  i32 v -> (same = true -> v = lastv) -> (present = false -> v = 0) ->
  opt_field present same lastv ((if present then if same then [] else le32 v else []) ++ tl) = Some (v, tl).
Proof.
  intros Hv Hs Hp. unfold opt_field. destruct present; [destruct same|].
  - now rewrite Hs.
  - now apply rd32_le32.
  - now rewrite Hp.
Qed.

Lemma rd_link_enc (present : bool) lk tl :
  lenZ lk < 2147483648 -> (present = false -> lk = []) ->
  (if present then
     match rd32 ((if present then le32 (lenZ lk) ++ lk else []) ++ tl) with
     | None => inr FShort
     | Some (ll, s) =>
         if ll <? 0 then inr FBadLink else
         match take ll s with None => inr FShort | Some (l, s') => inl (l, s') end
     end
   else inl ([], (if present then le32 (lenZ lk) ++ lk else []) ++ tl)) = inl (lk, tl).
Proof.
  intros Hl Hp. pose proof (lenZ_nonneg lk). destruct present; [|now rewrite Hp].
  rewrite <- app_assoc, rd32_le32 by (unfold i32; lia).
  now rewrite (proj2 (Z.ltb_ge _ _)), take_app.
Qed.

(* [tl]: the entry loop [recv_entries] has taken the flags byte, the head of [enc_entry], before it
   calls [recv_entry] with it *)
Lemma recv_entry_enc has_rdev o prev e c rest :
  entry_ok o e -> choice_ok prev e c ->
  has_rdev o (e_mode e) = receiver_has_rdev o (e_mode e) ->
  recv_entry o (flags_of c) prev (tl (enc_entry has_rdev o c e) ++ rest) = inl (e, rest).
Proof.
  intros He Hc Hrd.
  unfold enc_entry. cbn [app tl]. rewrite Hrd, <- !app_assoc.
  (* the decoder's seven flag tests, an equation each *)
  pose proof (flags_decode c) as [= F1 F2 F3 F4 F5 F6 F7].
  unfold recv_entry. rewrite F1, F2, F3, F4, F5, F6, F7.
  pose proof (co_l1 _ _ _ Hc) as Hl1.
  assert (Hn : 0 <= lenZ (dropZ (ch_l1 c) (e_name e)) < c_PATH_MAX - ch_l1 c).
  { pose proof (co_l1_name _ _ _ Hc). pose proof (ok_namelen _ _ He). rewrite lenZ_dropZ; lia. }
  rewrite rd_l1_enc by (rewrite Z.ltb_ge; lia).
  rewrite rd_namelen_enc by (unfold i32, c_PATH_MAX in *; lia).
  rewrite name_fits by exact Hn.
  rewrite take_app, inherit_prefix, (ok_clean _ _ He) by apply Hc.   (* co_l1_prev, co_prefix *)
  rewrite rd_i64_enc by apply He.                                     (* ok_len *)
  (* time and mode are always sent; uid, gid and rdev under their options
     (ok_* for the range, co_* for a repeated value, canon_* for a field not sent) *)
  rewrite !(opt_field_enc true), !opt_field_enc by (discriminate || apply He || apply Hc).
  rewrite rd_link_enc by apply He.                                    (* ok_link, canon_link *)
  pose proof (canon_csum _ _ He) as Hcs.
  destruct (o_checksum o); [rewrite <- Hcs, take_app|cbn [app]; rewrite <- Hcs]; now destruct e.
Qed.

Inductive chain_ok (o : fopts) : fentry -> list (choice * fentry) -> Prop :=
| chain_nil prev : chain_ok o prev []
| chain_cons prev c e r :
    entry_ok o e -> choice_ok prev e c -> chain_ok o e r -> chain_ok o prev ((c, e) :: r).

(* every round of the loop consumes a byte, so fuel for the length of the stream is enough *)
Lemma recv_entries_enc has_rdev o : forall ces prev fuel acc rest,
  chain_ok o prev ces ->
  (forall c e, In (c, e) ces -> has_rdev o (e_mode e) = receiver_has_rdev o (e_mode e)) ->
  (length (enc_entries has_rdev o ces ++ 0%Z :: rest) < fuel)%nat ->
  recv_entries fuel o prev (enc_entries has_rdev o ces ++ 0 :: rest) acc
  = inl (rev acc ++ map snd ces, rest).
Proof.
  induction ces as [|[c e] r IH]; intros prev fuel acc rest Hch Hrd Hf;
    (destruct fuel as [|fuel]; [lia|]); cbn [enc_entries recv_entries] in Hf |- *.
  - cbn. now rewrite app_nil_r.
  - inversion Hch as [|? ? ? ? He Hc Hr]; subst. rewrite <- app_assoc in Hf |- *.
    change (enc_entry has_rdev o c e) with (flags_of c :: tl (enc_entry has_rdev o c e)) in Hf |- *.
    cbn [app length] in Hf. rewrite app_length in Hf. cbn [app rd8].
    rewrite (proj2 (Z.eqb_neq _ _) (co_nonzero _ _ _ Hc)).
    rewrite (recv_entry_enc _ _ _ _ _ _ He Hc) by (apply (Hrd c); now left).
    rewrite IH; [|exact Hr|intros c' e' Hin; apply (Hrd c'); now right|lia].
    cbn [rev map snd]. now rewrite <- app_assoc.
Qed.

Definition id_ok (p : Z * list Z) : Prop :=
  fst p <> 0 /\ i32 (fst p) /\ lenZ (snd p) <= 255.

Lemma recv_idlist_enc : forall l fuel acc rest,
  Forall id_ok l -> (length (enc_idlist l ++ rest) < fuel)%nat ->
  recv_idlist fuel (enc_idlist l ++ rest) acc = Some (rev acc ++ l, rest).
Proof.
  induction l as [|[id name] r IH]; intros fuel acc rest Hok Hf;
    (destruct fuel as [|fuel]; [lia|]); cbn [enc_idlist recv_idlist] in Hf |- *.
  - rewrite rd32_le32 by lia. cbn. now rewrite app_nil_r.
  - inversion Hok as [|? ? (Hnz & Hi & Hl) Hr]; subst. cbn [fst snd] in *.
    rewrite <- !app_assoc in Hf |- *. do 3 rewrite app_length in Hf. cbn [length] in Hf.
    rewrite rd32_le32 by exact Hi. rewrite (proj2 (Z.eqb_neq _ _) Hnz).
    cbn [app rd8]. pose proof (lenZ_nonneg name).
    rewrite Z.mod_small, take_app by lia. rewrite IH by (auto; lia).
    cbn [rev]. now rewrite <- app_assoc.
Qed.

Lemma recv_idlist_opt (present : bool) l tl :
  Forall id_ok l ->
  (if present then recv_idlist (S (length ((if present then enc_idlist l else []) ++ tl)))
                               ((if present then enc_idlist l else []) ++ tl) []
   else Some ([], (if present then enc_idlist l else []) ++ tl))
  = Some ((if present then l else []), tl).
Proof.
  intros Hl. destruct present; [|reflexivity]. apply (recv_idlist_enc l _ [] tl Hl). lia.
Qed.

Theorem recv_file_list_enc has_rdev o ces uids gids ioerr rest :
  chain_ok o empty_entry ces ->
  (forall c e, In (c, e) ces -> has_rdev o (e_mode e) = receiver_has_rdev o (e_mode e)) ->
  Forall id_ok uids -> Forall id_ok gids -> i32 ioerr ->
  recv_file_list o (enc_entries has_rdev o ces ++ enc_trailer o uids gids ioerr ++ rest)
  = inl (mkFR (sort_entries (map snd ces))
              (if o_uid o then uids else []) (if o_gid o then gids else []) ioerr rest).
Proof.
  intros Hch Hrd Hu Hg Hio. unfold recv_file_list, enc_trailer. cbn [app].
  rewrite (recv_entries_enc has_rdev o ces empty_entry _ [] _ Hch Hrd) by lia.
  rewrite <- !app_assoc.
  rewrite (recv_idlist_opt _ _ _ Hu), (recv_idlist_opt _ _ _ Hg), rd32_le32 by exact Hio.
  reflexivity.
Qed.

Lemma gokr_choice_ok prev e : choice_ok prev e (gokr_choice e).
Proof.
  pose proof (lenZ_nonneg (e_name e)). pose proof (lenZ_nonneg (e_name prev)).
  constructor; cbn [gokr_choice ch_l1 ch_long ch_same_time ch_same_mode ch_same_uid ch_same_gid ch_same_rdev ch_top];
    try lia; try (intros Hx; discriminate Hx); try (now rewrite !takeZ_0).
  unfold flags_of, gokr_choice.
  destruct (list_eqb (e_name e) [46]); discriminate.
Qed.

Lemma gokr_chain o : forall es prev, Forall (entry_ok o) es ->
  chain_ok o prev (map (fun e => (gokr_choice e, e)) es).
Proof.
  induction es as [|e r IH]; intros prev Hok; cbn [map]; [constructor|].
  inversion Hok; subst. constructor; [assumption|apply gokr_choice_ok|now apply IH].
Qed.

Theorem send_recv_file_list o es uids gids ioerr rest :
  Forall (entry_ok o) es -> Forall id_ok uids -> Forall id_ok gids -> i32 ioerr ->
  recv_file_list o (send_file_list o es uids gids ioerr ++ rest)
  = inl (mkFR (sort_entries es) (if o_uid o then uids else []) (if o_gid o then gids else []) ioerr rest).
Proof.
  intros Hes Hu Hg Hio. unfold send_file_list. rewrite <- app_assoc.
  (* sender and receiver decide the rdev field by the same function of the options *)
  rewrite recv_file_list_enc; [|now apply gokr_chain|reflexivity|exact Hu|exact Hg|exact Hio].
  rewrite map_map. now rewrite map_id.
Qed.

(** The order of the list (sortFileList). *)
Definition name_le (a b : fentry) : Prop := lex_ltb (e_name b) (e_name a) = false.

Lemma insert_perm e l : Permutation (insert_sorted e l) (e :: l).
Proof.
  induction l as [|x r IH]; cbn [insert_sorted]; [reflexivity|].
  destruct (lex_ltb (e_name e) (e_name x)); [reflexivity|].
  rewrite IH. apply perm_swap.
Qed.

Lemma sort_perm l : Permutation (sort_entries l) l.
Proof.
  induction l as [|x r IH]; [reflexivity|].
  change (sort_entries (x :: r)) with (insert_sorted x (sort_entries r)).
  rewrite insert_perm. now constructor.
Qed.

Lemma lex_ltb_irrefl a : lex_ltb a a = false.
Proof. induction a as [|x a IH]; cbn; [reflexivity|]. now rewrite Z.ltb_irrefl. Qed.

Lemma lex_total a : forall b, lex_ltb a b = false -> lex_ltb b a = false -> a = b.
Proof.
  induction a as [|x a IH]; intros [|y b]; cbn [lex_ltb]; try congruence.
  destruct (Z.ltb_spec x y); [discriminate|]. destruct (Z.ltb_spec y x); [discriminate|].
  intros H1 H2. assert (x = y) by lia. subst. f_equal. now apply IH.
Qed.

Lemma lex_trans a : forall b c, lex_ltb a b = true -> lex_ltb b c = true -> lex_ltb a c = true.
Proof.
  induction a as [|x a IH]; intros [|y b] [|z c]; cbn [lex_ltb]; try congruence.
  destruct (Z.ltb_spec x y).
  - intros _ Hbc. destruct (Z.ltb_spec y z); [|destruct (Z.ltb_spec z y); [discriminate|]];
      now rewrite (proj2 (Z.ltb_lt x z)) by lia.
  - destruct (Z.ltb_spec y x); [discriminate|]. replace y with x by lia.
    destruct (Z.ltb_spec x z); [reflexivity|]. destruct (Z.ltb_spec z x); [discriminate|]. apply IH.
Qed.

Fixpoint strictly_sorted (l : list fentry) : Prop :=
  match l with
  | [] => True
  | x :: r => (forall y, In y r -> lex_ltb (e_name x) (e_name y) = true) /\ strictly_sorted r
  end.

Lemma insert_strict e l :
  strictly_sorted l -> (forall y, In y l -> e_name y <> e_name e) ->
  strictly_sorted (insert_sorted e l).
Proof.
  induction l as [|x r IH]; intros Hs Hd; cbn [insert_sorted].
  - cbn. auto.
  - destruct Hs as [Hx Hr].
    destruct (lex_ltb (e_name e) (e_name x)) eqn:El.
    + cbn [strictly_sorted]. split; [|split; assumption].
      intros y [<-|Hy]; [exact El|]. eapply lex_trans; [exact El|apply Hx, Hy].
    + cbn [strictly_sorted]. split.
      * intros y Hy. apply (Permutation_in _ (insert_perm e r)) in Hy. destruct Hy as [<-|Hy]; [|apply Hx, Hy].
        destruct (lex_ltb (e_name x) (e_name e)) eqn:E2; [reflexivity|].
        exfalso. apply (Hd x (or_introl eq_refl)). now apply lex_total.
      * apply IH; [exact Hr|]. intros y Hy. apply Hd. now right.
Qed.

Lemma sort_strict l : NoDup (map e_name l) -> strictly_sorted (sort_entries l).
Proof.
  induction l as [|x r IH]; intros Hnd; [exact I|].
  inversion Hnd as [|? ? Hnin Hnd']; subst.
  change (sort_entries (x :: r)) with (insert_sorted x (sort_entries r)).
  apply insert_strict; [now apply IH|].
  intros y Hy E. apply Hnin. apply (Permutation_in _ (sort_perm r)) in Hy.
  rewrite <- E. now apply in_map.
Qed.

Lemma strictly_sorted_unique : forall l1 l2,
  strictly_sorted l1 -> strictly_sorted l2 -> Permutation l1 l2 -> l1 = l2.
Proof.
  induction l1 as [|x r IH]; intros l2 H1 H2 Hp.
  - now apply Permutation_nil in Hp.
  - destruct l2 as [|y r2]; [now apply Permutation_sym, Permutation_nil in Hp|].
    destruct H1 as [Hx Hr], H2 as [Hy Hr2].
    assert (x = y) as <-.
    { destruct (Permutation_in x Hp (or_introl eq_refl)) as [E|Hin1]; [now symmetry|].
      destruct (Permutation_in y (Permutation_sym Hp) (or_introl eq_refl)) as [E|Hin2]; [exact E|].
      (* otherwise each head is below the other one *)
      pose proof (lex_trans _ _ _ (Hx y Hin2) (Hy x Hin1)) as C. now rewrite lex_ltb_irrefl in C. }
    f_equal. apply IH; [exact Hr|exact Hr2|exact (Permutation_cons_inv Hp)].
Qed.

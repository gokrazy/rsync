(** Model/Checksum.v: the uint32 loop of Checksum1 against the exact sums [S1]
    and [S2], the rolling update of the search, and the block layout both
    sides compute from a file length ([regular]). *)
From Coq Require Import ZArith List Bool Lia.
From RV Require Import Model.Checksum Gen.Consts.
Import ListNotations.
Open Scope Z_scope.
(* lia on / and mod; the setting is global, so it is undone at the end of the file *)
Ltac Zify.zify_post_hook ::= Z.div_mod_to_equations.

(** The uint32 loop computes the exact sums modulo 2^32.  Each register is
    reduced after every byte; the second one then differs from the exact sum
    by a multiple of 2^32 that the induction makes explicit. *)
Lemma csum_loop_spec w : forall a b,
  fst (csum_loop w a b) mod 4294967296 = (a + S1 w) mod 4294967296 /\
  snd (csum_loop w a b) mod 4294967296 = (b + Z.of_nat (length w) * a + S2 w) mod 4294967296.
Proof.
  induction w as [|x r IH]; intros a b.
  - cbn [csum_loop fst snd S1 S2 length]. split; f_equal; lia.
  - cbn [csum_loop]. pose proof (IH ((a + se x) mod 4294967296) ((b + (a + se x) mod 4294967296) mod 4294967296)) as [H1 H2].
    split.
    + rewrite H1. cbn [S1]. rewrite Zplus_mod_idemp_l. f_equal. lia.
    + rewrite H2. cbn [S2].
      replace (Z.of_nat (length (x :: r))) with (Z.of_nat (length r) + 1)
        by (cbn [length]; rewrite Nat2Z.inj_succ; reflexivity).
      clear H1 H2 IH.
      set (n := Z.of_nat (length r)). clearbody n.
      set (t := a + se x).
      rewrite <- Zplus_assoc, Zplus_mod_idemp_l.
      assert (HM : 4294967296 <> 0) by discriminate.
      set (M := 4294967296) in *. clearbody M.
      rewrite (Z.mod_eq t M) by exact HM.
      replace (b + (t - M * (t / M)) + (n * (t - M * (t / M)) + S2 r))
        with ((b + (n + 1) * a + ((n + 1) * se x + S2 r)) + (- (t / M) * (n + 1)) * M)
        by (unfold t; ring).
      apply Z_mod_plus_full.
Qed.

Lemma checksum1_halves w :
  sum_lo (checksum1 w) = S1 w mod 65536 /\ sum_hi (checksum1 w) = S2 w mod 65536 /\
  checksum1 w = sum_lo (checksum1 w) + sum_hi (checksum1 w) * 65536.
Proof.
  unfold sum_lo, sum_hi, checksum1. destruct (csum_loop_spec w 0 0) as [H1 H2].
  destruct (csum_loop w 0 0) as [r1 r2]. cbn [fst snd] in *. rewrite Z.mul_0_r in H2.
  generalize dependent (S1 w). generalize dependent (S2 w). intros. lia.
Qed.

Lemma S1_app a b : S1 (a ++ b) = S1 a + S1 b.
Proof. induction a as [|x a IH]; cbn [app S1]; lia. Qed.

Lemma S2_app a b : S2 (a ++ b) = S2 a + Z.of_nat (length b) * S1 a + S2 b.
Proof.
  induction a as [|x a IH]; cbn [app S1 S2 length]; [lia|].
  rewrite IH, app_length, !Nat2Z.inj_succ, Nat2Z.inj_add. ring.
Qed.

(** The update of match.go:176-201 on registers that hold the sums of the
    window [u0 :: m] modulo 2^16: dropping [u0] and taking [uk] in gives the
    sums of [m ++ [uk]]; dropping [u0] alone those of [m]. *)
Lemma roll_mod u0 m uk s1 s2 :
  s1 = S1 (u0 :: m) mod 65536 -> s2 = S2 (u0 :: m) mod 65536 ->
  let k := Z.of_nat (length (u0 :: m)) in
  let a := s1 - se u0 + se uk in
  a mod 65536 = S1 (m ++ [uk]) mod 65536 /\ (s2 - k * se u0 + a) mod 65536 = S2 (m ++ [uk]) mod 65536.
Proof.
  intros E1 E2 k a. subst a. rewrite S2_app, S1_app. cbn [S1 S2 length] in *. fold k in E2 |- *.
  generalize dependent (S1 m). generalize dependent (S2 m). generalize (k * se u0). intros. lia.
Qed.

Lemma shrink_mod u0 m s1 s2 :
  s1 = S1 (u0 :: m) mod 65536 -> s2 = S2 (u0 :: m) mod 65536 ->
  (s1 - se u0) mod 65536 = S1 m mod 65536 /\
  (s2 - Z.of_nat (length (u0 :: m)) * se u0) mod 65536 = S2 m mod 65536.
Proof. cbn [S1 S2]. generalize (Z.of_nat (length (u0 :: m)) * se u0). lia. Qed.

Lemma mod_sub_add_eq a b c d M : 0 < M -> a mod M = b mod M -> (a - c + d) mod M = (b - c + d) mod M.
Proof.
  intros HM E.
  rewrite <- (Zplus_mod_idemp_l (a - c)), <- (Zminus_mod_idemp_l a), E,
          Zminus_mod_idemp_l, Zplus_mod_idemp_l. reflexivity.
Qed.

Lemma block_len_bounds h i : 1 <= h_blen h -> 0 <= h_rem h ->
  1 <= block_len h i /\ (h_rem h <= h_blen h -> block_len h i <= h_blen h).
Proof.
  intros Hb Hr. unfold block_len. destruct ((i =? h_count h - 1) && negb (h_rem h =? 0)) eqn:E; lia.
Qed.

(** The layout both sides compute for a file of [n] bytes cut into blocks of
    [b] bytes: ceil(n/b) blocks, the last one of length [n mod b] unless that
    is zero (SumSizesSqroot; receiveSums and receiveData read it back through
    [block_len]). *)
Definition regular (h : sum_head) (n : Z) : Prop :=
  1 <= h_blen h /\ h_count h = (n + (h_blen h - 1)) / h_blen h /\ h_rem h = n mod h_blen h.

Lemma div_ceil n b : 1 <= b ->
  (n + (b - 1)) / b = n / b + (if n mod b =? 0 then 0 else 1).
Proof.
  intros Hb. destruct (Z.eqb_spec (n mod b) 0) as [E0|NE]; symmetry.
  - apply Z.div_unique with (r := b - 1); lia.
  - apply Z.div_unique with (r := n mod b - 1); lia.
Qed.

Lemma block_layout h n j : regular h n -> 0 <= j < h_count h ->
  block_len h j = Z.min (h_blen h) (n - j * h_blen h) /\ j * h_blen h < n /\
  (j * h_blen h + block_len h j = n <-> j = h_count h - 1) /\
  (j < h_count h - 1 -> (j + 1) * h_blen h < n).
Proof.
  intros (Hb & Hc & Hr) Hj. unfold block_len. rewrite Hr, Hc in *. clear Hr Hc.
  set (b := h_blen h) in *. clearbody b. rewrite div_ceil in * by lia.
  pose proof (Z.div_mod n b ltac:(lia)) as E. pose proof (Z.mod_pos_bound n b ltac:(lia)) as R.
  set (q := n / b) in *. set (r := n mod b) in *. clearbody q r.
  assert (Hq : forall i, i < q -> i * b + b <= q * b).
  { intros. replace (i * b + b) with ((i + 1) * b) by ring. apply Z.mul_le_mono_nonneg_r; lia. }
  pose proof (Hq j). pose proof (Hq (j + 1)).
  destruct (Z.eqb_spec r 0) as [E0|NE]; cbn [negb].
  - rewrite Bool.andb_false_r. lia.
  - rewrite Bool.andb_true_r. destruct (Z.eqb_spec j (q + 1 - 1)) as [Ej|Nj]; lia.
Qed.

(** the end of block [j] is the end of the file, or the start of the next
    block, which lies before the search's exit mark *)
Lemma block_end h n j : regular h n -> 0 <= j < h_count h ->
  j = h_count h - 1 /\ j * h_blen h + block_len h j = n \/
  j < h_count h - 1 /\ j * h_blen h + block_len h j = (j + 1) * h_blen h /\
    (j + 1) * h_blen h < n + 1 - block_len h (h_count h - 1).
Proof.
  intros Hreg Hj.
  destruct (block_layout h n j Hreg Hj) as (L1 & L2 & L3 & L4).
  destruct (block_layout h n (h_count h - 1) Hreg ltac:(lia)) as (M1 & M2 & M3 & _).
  destruct (Z.eq_dec j (h_count h - 1)) as [E|N]; [left; split; [exact E|now apply L3]|right].
  assert ((j + 1) * h_blen h <= (h_count h - 1) * h_blen h) by (apply Z.mul_le_mono_nonneg_r; lia).
  lia.
Qed.

Lemma count_pos h n : 0 < n -> regular h n -> 1 <= h_count h.
Proof. intros Hn (Hb & -> & _). apply Z.div_le_lower_bound; lia. Qed.

Lemma block_counted h n j : regular h n -> j * h_blen h < n -> j < h_count h.
Proof.
  intros (Hb & -> & _) Hlt.
  assert (j + 1 <= (n + (h_blen h - 1)) / h_blen h) by (apply Z.div_le_lower_bound; lia). lia.
Qed.

Lemma regular_sqroot n : regular (sum_sizes_sqroot n) n /\ c_blockSize <= h_blen (sum_sizes_sqroot n).
Proof.
  unfold regular, sum_sizes_sqroot. cbn [h_blen h_count h_rem].
  unfold c_blockSize in *. repeat split; lia.
Qed.

Ltac Zify.zify_post_hook ::= idtac.

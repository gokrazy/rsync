(** The receiver's --delete walk leaves exactly the paths [keeps] describes, each with the kind it had
    ([del_kind]); the sender's filtered walk lists exactly the existing paths on which no component is
    excluded ([select_sound], [select_complete]); what [check_rules] refuses. *)
From Coq Require Import ZArith List Bool Lia.
From RV Require Import Model.Bytes Model.Tree Proofs.BytesProofs.
Import ListNotations.
Open Scope Z_scope.

Lemma depth_child n t cs : In (n, t) cs -> (depth t < depth (TDir cs))%nat.
Proof.
  cbn [depth]. induction cs as [|[m u] r IH]; intros Hin; [destruct Hin|].
  cbn [fold_right snd]. destruct Hin as [E|Hin].
  - inversion E; subst. lia.
  - specialize (IH Hin). lia.
Qed.

Lemma assoc_in n cs t : assoc_name n cs = Some t -> In (n, t) cs.
Proof.
  induction cs as [|[m u] r IH]; cbn [assoc_name]; [discriminate|].
  destruct (list_eqb m n) eqn:E.
  - intros H. inversion H; subst. apply list_eqb_eq in E. subst. now left.
  - intros H. right. now apply IH.
Qed.

(** What stands at a path: 0 a regular file, 1 any other non-directory, 2 a directory.  The delete walk
    is described by kinds and not by [lookup], since a directory that stays may lose entries. *)
Definition kind_at (t : ftree) (p : path) : option Z :=
  match lookup t p with
  | None => None
  | Some TFile => Some 0
  | Some TOther => Some 1
  | Some (TDir _) => Some 2
  end.

Section DeleteProofs.
  Variable listed : path -> bool.
  Variable protected : path -> bool.

  Lemma delete_files_dry has_top ioerrors t : delete_files listed protected has_top ioerrors true t = t.
  Proof. unfold delete_files. now rewrite orb_true_r. Qed.

  (** looking a name up in the walked directory; an entry's fate depends on
      its path only, so repeated names (which a real directory cannot have)
      are harmless *)
  Lemma assoc_del fuel rprefix n cs :
    assoc_name n (flat_map (fun nt =>
                  if listed (rev (fst nt :: rprefix))
                  then [(fst nt, del_tree listed protected fuel (fst nt :: rprefix) (snd nt))]
                  else if protected (rev (fst nt :: rprefix)) then [nt] else []) cs)
    = match assoc_name n cs with
      | None => None
      | Some t => if listed (rev (n :: rprefix)) then Some (del_tree listed protected fuel (n :: rprefix) t)
                  else if protected (rev (n :: rprefix)) then Some t else None
      end.
  Proof.
    induction cs as [|[m u] r IH]; [reflexivity|]. cbn [flat_map assoc_name fst snd].
    destruct (list_eqb m n) eqn:E.
    - apply list_eqb_eq in E. subst m.
      destruct (listed (rev (n :: rprefix))); [|destruct (protected (rev (n :: rprefix)))];
        cbn [app assoc_name]; rewrite ?list_eqb_refl; try reflexivity.
      rewrite IH. now destruct (assoc_name n r).
    - destruct (listed (rev (m :: rprefix))); [|destruct (protected (rev (m :: rprefix)))];
        cbn [app assoc_name]; rewrite ?E; exact IH.
  Qed.

  Lemma del_kind : forall p fuel rprefix t,
    (depth t <= fuel)%nat ->
    kind_at (del_tree listed protected fuel rprefix t) p =
    if keeps listed protected rprefix p then kind_at t p else None.
  Proof.
    induction p as [|c r IH]; intros fuel rprefix t Hf.
    - destruct fuel; [|destruct t]; reflexivity.
    - destruct fuel as [|fuel]; [destruct t; cbn in Hf; lia|].
      (* where [t] has nothing at c :: r, both sides are None whatever [keeps] says *)
      unfold kind_at in *. destruct t as [| |cs]; cbn [del_tree lookup];
        [now destruct (keeps listed protected rprefix (c :: r)) ..|].
      rewrite assoc_del. destruct (assoc_name c cs) as [u|] eqn:Ea;
        [|now destruct (keeps listed protected rprefix (c :: r))].
      cbn [keeps]. destruct (listed (rev (c :: rprefix))).
      + apply IH. pose proof (depth_child c u cs (assoc_in _ _ _ Ea)). lia.
      + destruct (protected (rev (c :: rprefix))); reflexivity.
  Qed.

  Fixpoint all_listed (rprefix : path) (p : path) : bool :=
    match p with
    | [] => true
    | c :: r => listed (rev (c :: rprefix)) && all_listed (c :: rprefix) r
    end.

  Lemma all_listed_keeps : forall p rprefix, all_listed rprefix p = true -> keeps listed protected rprefix p = true.
  Proof.
    induction p as [|c r IH]; intros rprefix; cbn [all_listed keeps]; [reflexivity|].
    intros H. apply andb_true_iff in H. destruct H as [H1 H2]. rewrite H1. now apply IH.
  Qed.
End DeleteProofs.

(** A path that exists in the tree, by membership: [select] walks every child,
    where [lookup] sees only the first of equal names. *)
Fixpoint path_in (t : ftree) (p : path) : Prop :=
  match p with
  | [] => True
  | c :: r => match t with
              | TDir cs => exists u, In (c, u) cs /\ path_in u r
              | _ => False
              end
  end.

Lemma path_in_app : forall p t sub q, lookup t p = Some sub -> path_in sub q -> path_in t (p ++ q).
Proof.
  induction p as [|c r IH]; intros t sub q L P.
  - injection L as <-. exact P.
  - destruct t as [| |cs]; cbn [lookup] in L; try discriminate.
    destruct (assoc_name c cs) as [u|] eqn:Ea; [|discriminate].
    exists u. split; [now apply assoc_in|eapply IH; eassumption].
Qed.

Lemma lookup_path_in p t node : lookup t p = Some node -> path_in t p.
Proof. intros L. rewrite <- (app_nil_r p). exact (path_in_app p t node [] L I). Qed.

Section SelectProofs.
  Variable rules : list frule.

  Lemma select_sound : forall fuel rprefix t q,
    In q (select rules fuel rprefix t) ->
    exists p, p <> [] /\ q = rev rprefix ++ p /\ path_in t p /\ allowed rules rprefix p = true.
  Proof.
    induction fuel as [|fuel IH]; intros rprefix t q Hin; [destruct Hin|].
    destruct t as [| |cs]; cbn [select] in Hin; try destruct Hin.
    apply in_flat_map in Hin. destruct Hin as ((n, u) & Hcs & Hq). cbn [fst snd] in Hq.
    destruct (excluded rules (rev (n :: rprefix))) eqn:Ex; [destruct Hq|].
    (* [q] is the entry [n] itself or, by induction, lies below it *)
    assert (exists p, q = rev (n :: rprefix) ++ p /\ path_in u p /\ allowed rules (n :: rprefix) p = true)
      as (p & -> & Hp & Ha).
    { destruct Hq as [<-|Hq]; [exists []; now rewrite app_nil_r|].
      apply IH in Hq as (p & _ & H). now exists p. }
    exists (n :: p). split; [discriminate|]. cbn [allowed]. rewrite Ex. cbn [rev path_in]. rewrite <- app_assoc. eauto.
  Qed.

  Lemma select_complete : forall p fuel rprefix t,
    (depth t <= fuel)%nat -> p <> [] ->
    path_in t p -> allowed rules rprefix p = true ->
    In (rev rprefix ++ p) (select rules fuel rprefix t).
  Proof.
    induction p as [|c r IH]; intros fuel rprefix t Hf Hne Hl Ha; [congruence|].
    destruct fuel as [|fuel]; [destruct t; cbn in Hf; lia|].
    destruct t as [| |cs]; cbn [path_in] in Hl; try contradiction.
    destruct Hl as (u & Hu & Hl).
    cbn [allowed] in Ha. destruct (excluded rules (rev (c :: rprefix))) eqn:Ex; [discriminate|].
    cbn [select]. apply in_flat_map. exists (c, u). split; [exact Hu|].
    cbn [fst snd]. rewrite Ex.
    destruct r as [|c2 r2].
    - left. reflexivity.
    - right. replace (rev rprefix ++ c :: c2 :: r2) with (rev (c :: rprefix) ++ c2 :: r2)
        by (cbn [rev]; now rewrite <- app_assoc).
      eapply IH; [|discriminate|exact Hl|exact Ha].
      pose proof (depth_child c u cs Hu). lia.
  Qed.
End SelectProofs.

Lemma allowed_nil : forall p rprefix, allowed [] rprefix p = true.
Proof. induction p as [|c r IH]; intros rprefix; cbn [allowed excluded]; [reflexivity|apply IH]. Qed.

Lemma check_rules_some lines rs :
  check_rules lines = Some rs ->
  rs = map parse_rule lines /\ Forall (fun r => existsb is_wild_char (r_pattern r) = false) rs.
Proof.
  unfold check_rules. destruct (existsb r_wild (map parse_rule lines)) eqn:E; [discriminate|].
  intros [= <-]. split; [reflexivity|].
  apply Forall_forall. intros r Hin. apply not_true_is_false. intros Hw.
  rewrite <- not_true_iff_false, existsb_exists in E. apply E. exists r. split; [exact Hin|].
  (* [r_wild] of a parsed rule is that very test of its pattern *)
  apply in_map_iff in Hin as (l & <- & _). unfold parse_rule in *.
  destruct (strip_prefix2 45 32 l); [exact Hw|]. destruct (strip_prefix2 43 32 l); exact Hw.
Qed.

Lemma check_rules_none lines :
  check_rules lines = None <-> exists l, In l lines /\ r_wild (parse_rule l) = true.
Proof.
  transitivity (existsb r_wild (map parse_rule lines) = true).
  - unfold check_rules. now destruct (existsb r_wild (map parse_rule lines)).
  - rewrite existsb_exists. split.
    + intros (r & (l & <- & Hl)%in_map_iff & Hw). eauto.
    + intros (l & Hl & Hw). eauto using in_map.
Qed.

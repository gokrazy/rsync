(** Model/Generator.v: the update decision, the sums the generator sends, and
    one file through generator, sender and receiver ([file_transfer_correct]). *)
From Coq Require Import ZArith List Bool Lia.
From RV Require Import Model.Bytes Model.Checksum Model.Delta Model.Sender Model.Generator
     Proofs.BytesProofs Proofs.ChecksumProofs Proofs.DeltaProofs Proofs.SenderProofs Proofs.SearchInv Gen.Consts.
Import ListNotations.
Open Scope Z_scope.

Section DecisionProofs.
  Variable Hplain : list Z -> list Z.

  (** a skipped file is one whose size matches (no update rule skips on a
      size difference) *)
  Lemma skip_implies_same_size ac it dsize dmtime dcontent ssize smtime scsum :
    skip_file Hplain ac it dsize dmtime dcontent ssize smtime scsum = true -> dsize = ssize.
  Proof.
    unfold skip_file. destruct (Z.eqb_spec dsize ssize); cbn [negb]; [auto|discriminate].
  Qed.

  (** any change of size or of mtime seconds is picked up by the default rule *)
  Lemma change_detected dsize dmtime dcontent ssize smtime scsum :
    dsize <> ssize \/ dmtime <> smtime ->
    gen_decision Hplain false false (DstFile dsize dmtime dcontent) ssize smtime scsum = DDelta.
  Proof.
    intros Hc. cbn [gen_decision]. unfold skip_file.
    destruct (Z.eqb_spec dsize ssize); cbn [negb]; [|reflexivity].
    destruct (Z.eqb_spec dmtime smtime); [|reflexivity]. destruct Hc; congruence.
  Qed.

End DecisionProofs.

Section SumsProofs.
  Variable H : list Z -> list Z.
  Variable seed : Z.
  Hypothesis H16 : forall x, lenZ (H x) = 16.

  (** generateAndSendSums cuts the file at multiples of the block length *)
  Lemma gen_blocks_nth fuel blen : forall data k x,
    1 <= blen -> (length data <= fuel)%nat ->
    nth_error (gen_blocks H seed fuel blen data) k = Some x ->
    Z.of_nat k * blen < lenZ data /\
    x = (checksum1 (takeZ blen (dropZ (Z.of_nat k * blen) data)),
         checksum2 H seed (takeZ blen (dropZ (Z.of_nat k * blen) data))).
  Proof.
    induction fuel as [|fuel IH]; intros data k x Hb Hf Hn; [destruct k; discriminate|].
    cbn [gen_blocks] in Hn. destruct data as [|d0 data'] eqn:Ed; [destruct k; discriminate|]. rewrite <- Ed in *.
    assert (Hpos : 1 <= lenZ data) by (rewrite Ed, lenZ_cons; pose proof (lenZ_nonneg data'); lia).
    destruct k as [|k]; cbn [nth_error] in Hn.
    - injection Hn as <-. rewrite dropZ_0. split; [lia|reflexivity].
    - destruct (IH (dropZ blen data) k x Hb) as [Hlt ->]; [|exact Hn|].
      { rewrite dropZ_skipn, skipn_length. lia. }
      destruct (Z.le_ge_cases blen (lenZ data)); [|rewrite dropZ_all, lenZ_nil in Hlt by lia; lia].
      rewrite lenZ_dropZ in Hlt by lia. rewrite dropZ_dropZ by lia.
      replace (blen + Z.of_nat k * blen) with (Z.of_nat (S k) * blen) by lia. split; [lia|reflexivity].
  Qed.

  (** one sum per started block of at least [c_blockSize] bytes *)
  Lemma gen_sums_length basis :
    Z.of_nat (length (snd (gen_sums H seed basis))) * c_blockSize < lenZ basis + c_blockSize.
  Proof.
    unfold gen_sums. cbn [snd]. destruct (regular_sqroot (lenZ basis)) as [_ Hb]. unfold c_blockSize in *.
    pose proof (lenZ_nonneg basis). destruct (length _) as [|k] eqn:El; [lia|].
    destruct (nth_error (gen_blocks H seed (length basis) (h_blen (sum_sizes_sqroot (lenZ basis))) basis) k) as [x|] eqn:En;
      [|apply nth_error_None in En; lia].
    apply gen_blocks_nth in En; [|lia|apply le_n]. nia.
  Qed.

  Lemma gen_sums_legal basis :
    sums_legal H seed basis (fst (gen_sums H seed basis)) (snd (gen_sums H seed basis)).
  Proof.
    unfold gen_sums. cbn [fst snd]. set (n := lenZ basis). set (h := sum_sizes_sqroot n).
    destruct (regular_sqroot n) as [Hreg Hb]. fold h in Hreg, Hb. unfold c_blockSize in Hb.
    intros i s1 s2 Hi Hnth. apply gen_blocks_nth in Hnth; [|lia|apply le_n].
    rewrite Z2Nat.id in Hnth by lia. destruct Hnth as [Hlt [= -> ->]].
    assert (Hcnt : 0 <= i < h_count h) by (split; [lia|now apply (block_counted h n)]).
    destruct (block_layout h n i Hreg Hcnt) as (L1 & L2 & _).
    assert (Hblk : takeZ (h_blen h) (dropZ (i * h_blen h) basis) = blk basis h i).
    { unfold blk. rewrite L1. destruct (Z.le_ge_cases (h_blen h) (n - i * h_blen h)); [now rewrite Z.min_l|].
      rewrite Z.min_r, !takeZ_all by (rewrite ?lenZ_dropZ; fold n; lia). reflexivity. }
    split; [|fold n; lia]. change (Z.max (Z.sqrt n) c_blockSize) with (h_blen h). rewrite Hblk.
    unfold strong. symmetry. apply takeZ_all.
    unfold checksum2. rewrite H16. unfold h, sum_sizes_sqroot, c_checksumLength. cbn [h_slen]. lia.
  Qed.
End SumsProofs.

Lemma enc_tokens_app a b : enc_tokens (a ++ b) = enc_tokens a ++ enc_tokens b.
Proof. unfold enc_tokens. apply flat_map_app. Qed.

(** The header of SumSizesSqroot is one the receiver accepts, for files below
    2^40 bytes: the count, at most n/700 + 1, is then below 2^31, and the
    block length, sqrt n, far below maxBlockLen. *)
Lemma head_valid_sqroot n : 0 <= n < 1099511627776 -> head_valid (sum_sizes_sqroot n).
Proof.
  intros Hn. unfold head_valid, sum_sizes_sqroot, c_blockSize, c_checksumLength, c_maxBlockLen.
  cbn [h_count h_blen h_slen h_rem].
  assert (Hsq : 0 <= Z.sqrt n < 1048576).
  { split; [apply Z.sqrt_nonneg|]. apply Z.sqrt_lt_square; lia. }
  set (bl := Z.max (Z.sqrt n) 700). assert (700 <= bl < 1048576) by (unfold bl; lia).
  pose proof (Z.mod_pos_bound n bl ltac:(lia)).
  assert (0 <= (n + (bl - 1)) / bl) by (apply Z.div_pos; lia).
  assert ((n + (bl - 1)) / bl < 2147483648) by (apply Z.div_lt_upper_bound; lia).
  lia.
Qed.

Section FileTransfer.
  Variable H : list Z -> list Z.
  Variable seed : Z.
  Variable chunk : Z.
  Hypothesis H16 : forall x, lenZ (H x) = 16.
  Hypothesis Hchunk : 1 <= chunk < 2147483648.

  (** Tokens that cover the source and denote it make the receiver commit it,
      whatever it holds locally.  (That they cover it makes them fit the wire
      format, [rcov_wf]; what is committed follows from what they denote.) *)
  Lemma covered_transfer bopt h sums hh rt src :
    rcov H seed chunk h sums src rt (lenZ src) -> Z.of_nat (length sums) < 2147483648 ->
    head_valid hh -> (bopt = None -> Forall is_lit rt) ->
    denote (basis_of bopt) hh (rev rt) = Some src ->
    fst (receive_data H seed bopt (enc_file hh (rev rt) (filesum H seed src))) = Commit src.
  Proof.
    intros Hr Hs Hh Hl Hd. unfold enc_file.
    pose proof (receive_data_tokens H seed bopt hh (rev rt) (filesum H seed src) [] Hh) as E.
    rewrite Hd, app_nil_r, list_eqb_refl in E. rewrite E; [reflexivity| | |apply H16].
    - apply Forall_rev. apply (rcov_wf H seed chunk h sums src rt _ Hr); lia.
    - intros Eb. apply Forall_rev. now apply Hl.
  Qed.

  (** The whole pipeline for one file: whatever the destination held (nothing,
      or any file used as delta basis), the receiver commits exactly the
      source bytes — unless a window of the source collides with a different
      basis block under the 16-byte strong checksum. *)
  Theorem file_transfer_correct src dst :
    lenZ src < 1099511627776 ->
    match dst with
    | Some b => lenZ b < 1099511627776 /\ no_collision H seed b (fst (gen_sums H seed b)) src
    | None => True
    end ->
    file_transfer H seed chunk src dst = Commit src.
  Proof.
    intros Hsrc Hdst. unfold file_transfer. pose proof (lenZ_nonneg src) as Hs0.
    destruct dst as [b|].
    - destruct Hdst as [Hb Hnc]. pose proof (lenZ_nonneg b) as Hb0.
      pose proof (gen_sums_legal H seed H16 b) as Hleg. pose proof (gen_sums_length H seed b) as Hlen.
      destruct (gen_sums H seed b) as [h sums] eqn:Eg. cbn [fst snd] in *.
      assert (Eh : h = sum_sizes_sqroot (lenZ b)) by (unfold gen_sums in Eg; now injection Eg).
      destruct (regular_sqroot (lenZ b)) as [(Hblen & _ & Hrm) _]. rewrite <- Eh in Hblen, Hrm.
      destruct (send_one_covers H seed chunk ltac:(lia) h sums src) as (h' & rt & -> & Hr & Hh').
      { intros _. split; [exact Hblen|]. rewrite Hrm. apply Z.mod_pos_bound. lia. }
      apply (covered_transfer (Some b) h sums); [exact Hr|unfold c_blockSize in Hlen; lia| |discriminate|].
      + destruct Hh' as [(-> & _)|(-> & _)]; [rewrite Eh|]; apply head_valid_sqroot; lia.
      + destruct Hh' as [(-> & _)|(-> & Hl)].
        * exact (rcov_denote H seed chunk b h sums src rt Hr Hleg Hnc).
        * (* the sender fell back to the whole file: literals only *)
          exact (rcov_denote_lits H seed chunk h sums src b _ rt Hr Hl).
    - destruct (send_one_covers H seed chunk ltac:(lia) (mkHead 0 0 0 0) [] src) as (h' & rt & -> & Hr & Hh');
        [intros Hne; now destruct Hne|].
      destruct Hh' as [(_ & Hne)|(-> & Hl)]; [now destruct Hne|].
      apply (covered_transfer None (mkHead 0 0 0 0) []); [exact Hr|cbn; lia|apply head_valid_sqroot; lia|auto|].
      exact (rcov_denote_lits H seed chunk _ [] src [] _ rt Hr Hl).
  Qed.
End FileTransfer.

(** Model/Delta.v: what a token stream denotes against a basis, the checksum
    header as the receiver accepts it, and receiveData on an encoded
    transmission ([receive_data_tokens]). *)
From Coq Require Import ZArith List Bool Lia.
From RV Require Import Model.Bytes Model.Checksum Model.Delta Proofs.BytesProofs Gen.Consts.
Import ListNotations.
Open Scope Z_scope.

(** A token that the wire format can carry and that the decoder classifies
    as itself: literal runs of 1..2^31-1 bytes, block indices 0..2^31-1. *)
Definition wf_token (t : token) : Prop :=
  match t with
  | Lit bs => 1 <= lenZ bs < 2147483648
  | Ref i => 0 <= i < 2147483648
  end.

Definition is_lit (t : token) : Prop := match t with Lit _ => True | Ref _ => False end.

Lemma denote_app b h ts1 : forall ts2,
  denote b h (ts1 ++ ts2) =
  match denote b h ts1, denote b h ts2 with
  | Some x, Some y => Some (x ++ y)
  | _, _ => None
  end.
Proof.
  induction ts1 as [|t ts1 IH]; intros ts2; cbn [app denote].
  - now destruct (denote b h ts2).
  - rewrite IH. destruct t as [bs|i]; [|destruct (ref_bytes b h i); [|reflexivity]];
      destruct (denote b h ts1), (denote b h ts2); try reflexivity; now rewrite app_assoc.
Qed.

Lemma ref_bytes_inside basis h i :
  0 <= i * h_blen h -> 0 <= block_len h i -> i * h_blen h + block_len h i <= lenZ basis ->
  ref_bytes basis h i = Some (takeZ (block_len h i) (dropZ (i * h_blen h) basis)).
Proof.
  intros H0 H1 H2. unfold ref_bytes, sub. apply Z.leb_le in H0, H1, H2. now rewrite H0, H1, H2.
Qed.

(** every token takes at least its four-byte word: the stream length is
    enough fuel for the receiver's loop *)
Lemma enc_tokens_length ts : (length ts <= length (enc_tokens ts))%nat.
Proof.
  induction ts as [|t ts IH]; [apply le_n|]. change (enc_tokens (t :: ts)) with (enc_token t ++ enc_tokens ts).
  rewrite app_length. cbn [length].
  destruct t; cbn [enc_token]; rewrite ?app_length, le32_length; lia.
Qed.

Lemma app_same_len {A} (a : list A) : forall b x y,
  a ++ x = b ++ y -> length x = length y -> x = y.
Proof.
  induction a as [|u a IH]; intros [|v b] x y E L; cbn [app] in E.
  - exact E.
  - subst x. cbn [length] in L. rewrite app_length in L. lia.
  - subst y. cbn [length] in L. rewrite app_length in L. lia.
  - injection E as _ E. now apply (IH b).
Qed.

Definition head_valid (h : sum_head) : Prop :=
  0 <= h_count h < 2147483648 /\ 0 <= h_blen h <= c_maxBlockLen /\
  0 <= h_slen h <= 16 /\ 0 <= h_rem h <= h_blen h.

(** An accepted header is the first sixteen bytes of the stream, with every
    field in the range SumHead.ReadFrom checks. *)
Lemma read_head_ok s h r : read_head s = HeadOk h r ->
  (exists p, s = p ++ r /\ length p = 16%nat) /\
  0 <= h_count h /\ 0 <= h_blen h <= c_maxBlockLen /\ 0 <= h_slen h <= 16 /\ 0 <= h_rem h <= h_blen h.
Proof.
  unfold read_head.
  destruct (rd32 s) as [[c r1]|] eqn:E1; [|discriminate]. destruct (Z.ltb_spec c 0); [discriminate|].
  destruct (rd32 r1) as [[b r2]|] eqn:E2; [|discriminate].
  destruct (Z.ltb_spec b 0); [discriminate|]. destruct (Z.ltb_spec c_maxBlockLen b); [discriminate|].
  destruct (rd32 r2) as [[sl r3]|] eqn:E3; [|discriminate].
  destruct (Z.ltb_spec sl 0); [discriminate|]. destruct (Z.ltb_spec 16 sl); [discriminate|].
  destruct (rd32 r3) as [[rm r4]|] eqn:E4; [|discriminate].
  destruct (Z.ltb_spec rm 0); [discriminate|]. destruct (Z.ltb_spec b rm); [discriminate|].
  intros [= <- <-]. cbn [h_count h_blen h_slen h_rem]. split; [|lia].
  destruct (rd32_some _ _ _ E1) as (p1 & -> & L1), (rd32_some _ _ _ E2) as (p2 & -> & L2),
           (rd32_some _ _ _ E3) as (p3 & -> & L3), (rd32_some _ _ _ E4) as (p4 & -> & L4).
  exists (p1 ++ p2 ++ p3 ++ p4). rewrite <- !app_assoc, !app_length, L1, L2, L3, L4. auto.
Qed.

Lemma read_head_enc h s : head_valid h -> read_head (enc_head h ++ s) = HeadOk h s.
Proof.
  destruct h as [c b sl rm]. unfold head_valid, enc_head, read_head. cbn [h_count h_blen h_slen h_rem].
  intros (Hc & Hb & Hs & Hr). pose proof (eq_refl : c_maxBlockLen = 536870912).
  rewrite <- !app_assoc, rd32_le32 by lia. destruct (Z.ltb_spec c 0); [lia|].
  rewrite rd32_le32 by lia. destruct (Z.ltb_spec b 0); [lia|]. destruct (Z.ltb_spec c_maxBlockLen b); [lia|].
  rewrite rd32_le32 by lia. destruct (Z.ltb_spec sl 0); [lia|]. destruct (Z.ltb_spec 16 sl); [lia|].
  rewrite rd32_le32 by lia. destruct (Z.ltb_spec rm 0); [lia|]. destruct (Z.ltb_spec b rm); [lia|].
  reflexivity.
Qed.

Section ReceiverProofs.
  Variable H : list Z -> list Z.

  (** [bopt] is the local file, if there is one; without it only literal
      tokens can be applied (a reference is then RErrNoBasis). *)
  Definition basis_of (bopt : option (list Z)) : list Z := match bopt with Some b => b | None => [] end.

  Lemma recv_tokens_exact seed bopt h ts :
    Forall wf_token ts -> (bopt = None -> Forall is_lit ts) ->
    forall fuel acc tr rest,
      (length ts < fuel)%nat -> lenZ tr = 16 ->
      match denote (basis_of bopt) h ts with
      | Some d =>
          recv_tokens H fuel seed bopt h acc (enc_tokens ts ++ le32 0 ++ tr ++ rest) =
          if list_eqb (filesum H seed (acc ++ d)) tr
          then (Commit (acc ++ d), rest) else (Reject (acc ++ d), rest)
      | None =>
          exists r, recv_tokens H fuel seed bopt h acc (enc_tokens ts ++ le32 0 ++ tr ++ rest) =
                    (RErrBasisRead, r)
      end.
  Proof.
    induction 1 as [|t ts Ht Hts IH]; intros Hl fuel acc tr rest Hfuel Htr;
      (destruct fuel as [|fuel]; [cbn in Hfuel; lia|]); cbn [recv_tokens].
    - cbn [denote enc_tokens flat_map app]. rewrite rd32_le32, Z.eqb_refl, <- Htr, take_app, app_nil_r by lia.
      reflexivity.
    - specialize (IH (fun E => Forall_inv_tail (Hl E)) fuel).
      cbn [length] in Hfuel. change (enc_tokens (t :: ts)) with (enc_token t ++ enc_tokens ts).
      destruct t as [bs|i]; cbn [wf_token enc_token denote] in *; rewrite <- !app_assoc, rd32_le32 by lia.
      +
        destruct (Z.eqb_spec (lenZ bs) 0); [lia|]. destruct (Z.ltb_spec 0 (lenZ bs)); [|lia].
        rewrite take_app. specialize (IH (acc ++ bs) tr rest ltac:(lia) Htr).
        destruct (denote (basis_of bopt) h ts); [rewrite <- !app_assoc in IH|]; exact IH.
      +
        destruct (Z.eqb_spec (- (i + 1)) 0); [lia|]. destruct (Z.ltb_spec 0 (- (i + 1))); [lia|].
        replace (- (- (i + 1) + 1)) with i by lia.
        destruct bopt as [b|]; [|now apply Forall_inv in Hl]. cbn [basis_of] in *.
        destruct (ref_bytes b h i) as [d0|]; [|eauto].
        specialize (IH (acc ++ d0) tr rest ltac:(lia) Htr).
        destruct (denote b h ts); [rewrite <- !app_assoc in IH|]; exact IH.
  Qed.

  Lemma receive_data_tokens seed bopt h ts tr rest :
    head_valid h -> Forall wf_token ts -> (bopt = None -> Forall is_lit ts) -> lenZ tr = 16 ->
    match denote (basis_of bopt) h ts with
    | Some d =>
        receive_data H seed bopt (enc_head h ++ enc_tokens ts ++ le32 0 ++ tr ++ rest) =
        if list_eqb (filesum H seed d) tr then (Commit d, rest) else (Reject d, rest)
    | None =>
        exists r, receive_data H seed bopt (enc_head h ++ enc_tokens ts ++ le32 0 ++ tr ++ rest) =
                  (RErrBasisRead, r)
    end.
  Proof.
    intros Hh Hts Hl Htr. unfold receive_data. rewrite read_head_enc by exact Hh.
    apply (recv_tokens_exact seed bopt h ts Hts Hl _ [] tr rest); [|exact Htr].
    rewrite app_length. pose proof (enc_tokens_length ts). lia.
  Qed.

  Lemma receive_data_exact seed basis h ts tr rest :
    head_valid h -> Forall wf_token ts -> lenZ tr = 16 ->
    match denote basis h ts with
    | Some d =>
        receive_data H seed (Some basis) (enc_head h ++ enc_tokens ts ++ le32 0 ++ tr ++ rest) =
        if list_eqb (filesum H seed d) tr then (Commit d, rest) else (Reject d, rest)
    | None =>
        exists r, receive_data H seed (Some basis) (enc_head h ++ enc_tokens ts ++ le32 0 ++ tr ++ rest) =
                  (RErrBasisRead, r)
    end.
  Proof. intros Hh Hts. now apply (receive_data_tokens seed (Some basis)). Qed.

  (** ** A commit happens only when the 16 bytes read as the trailer equal
      the whole-file sum of exactly the bytes that were written *)
  Lemma recv_tokens_commit fuel : forall seed basis h acc s bs rest,
    recv_tokens H fuel seed basis h acc s = (Commit bs, rest) ->
    exists pre, s = pre ++ filesum H seed bs ++ rest.
  Proof.
    induction fuel as [|fuel IH]; intros seed basis h acc s bs rest; cbn [recv_tokens]; [discriminate|].
    destruct (rd32 s) as [[t s1]|] eqn:Hrd; [|discriminate].
    destruct (rd32_some _ _ _ Hrd) as (p & -> & _).
    destruct (t =? 0); [|destruct (0 <? t)].
    - destruct (take 16 s1) as [[trailer rest']|] eqn:Ht; [|discriminate].
      destruct (list_eqb (filesum H seed acc) trailer) eqn:He; [|discriminate].
      intros [= <- <-]. apply list_eqb_eq in He. apply take_some in Ht. destruct Ht as [-> _].
      exists p. now rewrite He.
    - destruct (take t s1) as [[data s2]|] eqn:Ht; [|discriminate].
      intros E. destruct (IH _ _ _ _ _ _ _ E) as (pre & ->).
      apply take_some in Ht. destruct Ht as [-> _].
      exists (p ++ data ++ pre). now rewrite <- !app_assoc.
    - destruct basis as [b|]; [|discriminate].
      destruct (ref_bytes b h (- (t + 1))); [|discriminate].
      intros E. destruct (IH _ _ _ _ _ _ _ E) as (pre & ->).
      exists (p ++ pre). now rewrite <- !app_assoc.
  Qed.

  Lemma receive_data_commit seed basis s bs rest :
    receive_data H seed basis s = (Commit bs, rest) ->
    exists pre, s = pre ++ filesum H seed bs ++ rest.
  Proof.
    unfold receive_data. destruct (read_head s) as [h s1| |] eqn:Hh; try discriminate.
    intros E. destruct (recv_tokens_commit _ _ _ _ _ _ _ _ E) as (pre & ->).
    destruct (read_head_ok _ _ _ Hh) as ((p & -> & _) & _).
    exists (p ++ pre). now rewrite <- app_assoc.
  Qed.
End ReceiverProofs.

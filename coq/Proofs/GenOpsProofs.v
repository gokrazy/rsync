(** The operation lists of Model/GenOps.v, run on the one-path state: setPerms leaves [set_perms_spec]
    ([set_perms_result]); every operation names the entry's own path, and none is issued in a dry run
    ([session_ops_all]); what the generator makes itself ends as the listed object with the metadata of
    setPerms ([entry_step_made]), an up-to-date or a received file with those of its own case
    ([entry_step_uptodate], [recv_commit_result]); ids are mapped by the names the sender listed
    ([id_map_of_listed]).  Last, the sender's request loop of Model/Session.v in a dry run. *)
From Coq Require Import ZArith List Bool Lia.
From RV Require Import Model.Bytes Model.Flist Model.GenOps Model.Session Proofs.BytesProofs Gen.Consts.
Import ListNotations.
Open Scope Z_scope.

Lemma run_ops_cons p now s op ops : run_ops p now s (op :: ops) = run_ops p now (apply_op p now s op) ops.
Proof. reflexivity. Qed.

Lemma run_ops_app p now s a b : run_ops p now s (a ++ b) = run_ops p now (run_ops p now s a) b.
Proof. apply fold_left_app. Qed.

Section OwnPath.
  Variables (p : list Z) (now : Z).

  Lemma apply_remove s : apply_op p now s (OpRemove p) = PAbsent.
  Proof. cbn [apply_op]. now rewrite list_eqb_refl. Qed.

  Lemma apply_mkdir perm : apply_op p now PAbsent (OpMkdirAll p perm) = PNode (fresh KDir perm now) [].
  Proof. cbn [apply_op]. now rewrite list_eqb_refl. Qed.

  Lemma apply_symlink s tgt : apply_op p now s (OpSymlink tgt p) = PNode (mkL KLnk 511 now 0 0 tgt 0 false) [].
  Proof. cbn [apply_op]. now rewrite list_eqb_refl. Qed.

  Lemma apply_mknod t perm rdev :
    apply_op p now PAbsent (OpMknod p t perm rdev) =
    PNode (mkL (KOther t) perm now 0 0 [] (if is_dev t then rdev else 0) false) [].
  Proof. cbn [apply_op]. now rewrite list_eqb_refl. Qed.

  Lemma apply_commit s c : apply_op p now s (OpCommitTemp p c) = PNode (fresh KReg 384 now) c.
  Proof. cbn [apply_op]. now rewrite list_eqb_refl. Qed.
End OwnPath.

Definition set_perms_spec (o : gopts) (e : fentry) (mode : Z) (st : lstat) : lstat :=
  let is_lnk := ftype mode =? c_S_IFLNK in
  mkL (l_kind st)
      (if is_lnk then l_perm st else perm_of mode)
      (if g_times o && negb is_lnk then e_mtime e else l_mtime st)
      (if g_uid o && g_am_root o then e_uid e else l_uid st)
      (if g_gid o && g_am_root o then e_gid e else l_gid st)
      (l_link st) (l_rdev st) (l_nonempty st).

(** setPerms and setUid issue an operation only when the value differs: the effect is that of issuing it always *)
Lemma if_differs (b : bool) x y : (if b && negb (x =? y) then y else x) = if b then y else x.
Proof. destruct b; [|reflexivity]. now destruct (Z.eqb_spec x y). Qed.

Section IfDiffers.
  Variables (p : list Z) (now : Z) (b : bool) (k : lkind) (pm mt u g : Z) (lk : list Z) (rd : Z) (ne : bool) (c : list Z).

  Lemma chtimes_if_differs mt' :
    run_ops p now (PNode (mkL k pm mt u g lk rd ne) c) (if b && negb (mt =? mt') then [OpChtimes p mt'] else []) =
    PNode (mkL k pm (if b then mt' else mt) u g lk rd ne) c.
  Proof.
    rewrite <- (if_differs b). destruct (b && _); [|reflexivity].
    cbn [run_ops fold_left apply_op]. now rewrite list_eqb_refl.
  Qed.

  Lemma chmod_if_differs pm' :
    run_ops p now (PNode (mkL k pm mt u g lk rd ne) c) (if b && negb (pm =? pm') then [OpChmod p pm'] else []) =
    PNode (mkL k (if b then pm' else pm) mt u g lk rd ne) c.
  Proof.
    rewrite <- (if_differs b). destruct (b && _); [|reflexivity].
    cbn [run_ops fold_left apply_op]. now rewrite list_eqb_refl.
  Qed.
End IfDiffers.

(** setUid decides by the Lstat [st] taken before Chtimes, and acts on the path as it is then, [st1] *)
Lemma set_uid_run o e now st st1 c :
  l_uid st1 = l_uid st -> l_gid st1 = l_gid st ->
  run_ops (e_name e) now (PNode st1 c) (set_uid_ops o e st) =
  PNode (mkL (l_kind st1) (l_perm st1) (l_mtime st1)
             (if g_uid o && g_am_root o then e_uid e else l_uid st)
             (if g_gid o && g_am_root o then e_gid e else l_gid st)
             (l_link st1) (l_rdev st1) (l_nonempty st1)) c.
Proof.
  intros Hu Hg. rewrite <- (if_differs (g_uid o && g_am_root o)), <- (if_differs (g_gid o && g_am_root o)).
  unfold set_uid_ops.
  destruct (g_uid o && _ && _), (g_gid o && _ && _); cbn [orb run_ops fold_left apply_op];
    rewrite ?list_eqb_refl; try reflexivity.
  (* neither id is to change: no operation, and the state is [st1] itself *)
  rewrite <- Hu, <- Hg. now destruct st1.
Qed.

Lemma set_uid_result o e now st c :
  run_ops (e_name e) now (PNode st c) (set_uid_ops o e st) =
  PNode (mkL (l_kind st) (l_perm st) (l_mtime st)
             (if g_uid o && g_am_root o then e_uid e else l_uid st)
             (if g_gid o && g_am_root o then e_gid e else l_gid st)
             (l_link st) (l_rdev st) (l_nonempty st)) c.
Proof. now apply set_uid_run. Qed.

Lemma set_perms_result o e mode now st c :
  g_dry o = false ->
  run_ops (e_name e) now (PNode st c) (set_perms_ops o e mode st) = PNode (set_perms_spec o e mode st) c.
Proof.
  intros D. unfold set_perms_ops, set_perms_spec. rewrite D, !run_ops_app.
  destruct st as [k pm mt u g lk rd ne].
  rewrite chtimes_if_differs, set_uid_run, chmod_if_differs by reflexivity.
  now destruct (ftype mode =? c_S_IFLNK).
Qed.

(** [mode] enters the result by its permission bits only, unless it is a symlink's *)
Lemma set_perms_spec_nolink o e mode st :
  is_link mode = false ->
  set_perms_spec o e mode st =
  mkL (l_kind st) (perm_of mode) (if g_times o then e_mtime e else l_mtime st)
      (if g_uid o && g_am_root o then e_uid e else l_uid st)
      (if g_gid o && g_am_root o then e_gid e else l_gid st)
      (l_link st) (l_rdev st) (l_nonempty st).
Proof. unfold set_perms_spec, is_link. intros ->. now rewrite andb_true_r. Qed.

Lemma set_perms_spec_twice o e m m' st :
  is_link m' = is_link m -> set_perms_spec o e m (set_perms_spec o e m' st) = set_perms_spec o e m st.
Proof.
  unfold set_perms_spec, is_link. intros ->.
  now destruct (ftype m =? c_S_IFLNK), (g_times o), (g_uid o && g_am_root o), (g_gid o && g_am_root o).
Qed.

Definition meta_only (op : fsop) : bool :=
  match op with OpChtimes _ _ | OpLchown _ _ _ | OpChmod _ _ => true | _ => false end.

Lemma Forall_if {A} (P : A -> Prop) (c : bool) x : P x -> Forall P (if c then [x] else []).
Proof. destruct c; now repeat constructor. Qed.

Lemma Forall_firstn {A} (P : A -> Prop) k l : Forall P l -> Forall P (firstn k l).
Proof. intros H. rewrite <- (firstn_skipn k l) in H. now apply Forall_app in H. Qed.

Lemma if_case {A} (Q : A -> Prop) (c : bool) x y : (c = true -> Q x) -> (c = false -> Q y) -> Q (if c then x else y).
Proof. destruct c; auto. Qed.

Lemma set_perms_ops_meta (P : fsop -> Prop) o e mode st :
  (g_dry o = false -> forall op, meta_only op = true -> op_path op = e_name e -> P op) ->
  Forall P (set_perms_ops o e mode st).
Proof.
  intros H. unfold set_perms_ops, set_uid_ops. apply if_case; intros D; [constructor|].
  rewrite !Forall_app. repeat split; now apply Forall_if, H.
Qed.

Lemma meta_only_keeps p now ops c :
  Forall (fun op => meta_only op = true) ops -> forall st,
  exists st', run_ops p now (PNode st c) ops = PNode st' c /\ l_kind st' = l_kind st /\ l_link st' = l_link st.
Proof.
  induction 1 as [|op ops H1 _ IH]; intros st; [now exists st|]. rewrite run_ops_cons.
  assert (S : exists st1, apply_op p now (PNode st c) op = PNode st1 c /\
                          l_kind st1 = l_kind st /\ l_link st1 = l_link st).
  { destruct op; try discriminate; cbn [apply_op]; destruct (list_eqb _ p); eexists; repeat split. }
  destruct S as (st1 & -> & K1 & L1). destruct (IH st1) as (st' & R & K & L).
  exists st'. now rewrite R, K, L.
Qed.

Section Issued.
  Variables (P : fsop -> Prop) (o : gopts) (e : fentry).
  Hypothesis HP : g_dry o = false -> forall op, op_path op = e_name e -> P op.

  Lemma set_perms_ops_all mode st : Forall P (set_perms_ops o e mode st).
  Proof. apply set_perms_ops_meta. intros D op _. exact (HP D op). Qed.

  (** every leaf of the generator's decision tree holds a few operations on the entry's own path and then
      setPerms; the leaves with operations before setPerms, and those that fail, stand behind a test for -n
      (setPerms tests for it itself) *)
  Lemma gen_entry_all dst skip now :
    let r := gen_entry o e dst skip now in Forall P (fst r) /\ (g_dry o = true -> snd r <> ReqError).
  Proof.
    set (Q := fun r : list fsop * gen_request => Forall P (fst r) /\ (g_dry o = true -> snd r <> ReqError)).
    change (Q (gen_entry o e dst skip now)). unfold gen_entry, new_symlink.
    (* to each leaf, keeping the outcome of every test passed on the way *)
    destruct dst as [s|]; [destruct (l_kind s)|]; repeat (apply if_case; intros ?); split; cbn [fst snd app].
    (* the requests: [ReqError] has [g_dry o = false] among the tests passed *)
    all: try (intros D' E; congruence).
    (* the operations: those before setPerms have it too, and name the entry's path *)
    all: repeat constructor; try (apply HP; [assumption|reflexivity]); apply set_perms_ops_all.
  Qed.

  Lemma gen_entry'_all dst skip now :
    let r := gen_entry' o e dst skip now in Forall P (fst r) /\ (g_dry o = true -> snd r <> ReqError).
  Proof.
    unfold gen_entry'. destruct dst as [s|]; [|apply gen_entry_all].
    apply if_case; intros C; [|apply gen_entry_all].
    split; [constructor|]. intros D. rewrite D, !andb_false_r in C. discriminate.
  Qed.

  Lemma touch_up_all st : Forall P (touch_up_ops o e st).
  Proof. unfold touch_up_ops. destruct (_ || _ || _); [constructor|apply set_perms_ops_all]. Qed.

  Lemma recv_ops_all c v old now : Forall P (recv_ops o e c v old now).
  Proof.
    unfold recv_ops. apply if_case; intros D; [constructor|].
    destruct v; cbn [app]; repeat constructor; try (apply (HP D); reflexivity).
    apply Forall_app. split; [apply set_perms_ops_all|]. repeat constructor. now apply HP.
  Qed.
End Issued.

Lemma entry_ops_all (P : fsop -> Prop) o now w :
  (g_dry o = false -> forall op, op_path op = e_name (w_entry w) -> P op) -> Forall P (entry_ops o now w).
Proof.
  intros HP. unfold entry_ops.
  destruct (gen_entry'_all P o _ HP (w_dst w) (w_skip w) now) as [G _].
  destruct (gen_entry' _ _ _ _ _) as [ops rq]. apply Forall_app. split; [exact G|].
  destruct rq; try constructor; now apply recv_ops_all.
Qed.

Lemma session_ops_all (P : fsop -> Prop) o now ws :
  (g_dry o = false -> forall w op, In w ws -> op_path op = e_name (w_entry w) -> P op) ->
  Forall P (receiver_session_ops o now ws).
Proof.
  intros HP. unfold receiver_session_ops. rewrite Forall_app, !Forall_flat_map, !Forall_forall.
  split; intros w Hw; [apply entry_ops_all|apply touch_up_all]; intros D op; exact (HP D w op Hw).
Qed.

(** a dry run: take for [P] what holds of no operation *)
Lemma dry_nil o (l : list fsop) : g_dry o = true -> Forall (fun _ => g_dry o = false) l -> l = [].
Proof. intros D [|op l' N _]; [reflexivity|congruence]. Qed.

Lemma dry_gen_entry' o e dst skip now :
  g_dry o = true -> exists rq, gen_entry' o e dst skip now = ([], rq) /\ rq <> ReqError.
Proof.
  intros D. destruct (gen_entry'_all (fun _ => g_dry o = false) o e (fun D' _ _ => D') dst skip now) as [A N].
  destruct (gen_entry' _ _ _ _ _) as [ops rq]. exists rq. split; [f_equal; exact (dry_nil o _ D A)|exact (N D)].
Qed.

Lemma dry_touch_up o e st : g_dry o = true -> touch_up_ops o e st = [].
Proof. intros D. apply (dry_nil o _ D), touch_up_all. auto. Qed.

(** ** mode bits: the type field, the permission bits (511 = 0777) and owner write (128 = 0200) *)
Lemma land_lor_disjoint a b m : Z.land b m = 0 -> Z.land (Z.lor a b) m = Z.land a m.
Proof. intros H. now rewrite Z.land_lor_distr_l, H, Z.lor_0_r. Qed.

Lemma land_small p : 0 <= p < 512 -> Z.land p 511 = p.
Proof. intros Hp. change 511 with (Z.ones 9). rewrite Z.land_ones by lia. apply Z.mod_small. lia. Qed.

Lemma ftype_small p : 0 <= p < 512 -> ftype p = 0.
Proof.
  intros Hp. unfold ftype. rewrite <- (land_small p Hp), <- Z.land_assoc.
  change (Z.land 511 c_S_IFMT) with 0. apply Z.land_0_r.
Qed.

(** the mode of an up-to-date file without -p: the listed type with the permissions [p] it has *)
Lemma keep_perm_perm mode p : 0 <= p < 512 -> perm_of (Z.lor (Z.land mode (Z.lnot 511)) p) = p.
Proof.
  intros Hp. unfold perm_of. rewrite Z.lor_comm, land_lor_disjoint; [now apply land_small|].
  rewrite <- Z.land_assoc. apply Z.land_0_r.
Qed.
Lemma keep_perm_ftype mode p : 0 <= p < 512 -> ftype (Z.lor (Z.land mode (Z.lnot 511)) p) = ftype mode.
Proof.
  intros Hp. unfold ftype at 1. rewrite land_lor_disjoint by now apply ftype_small.
  now rewrite <- Z.land_assoc.
Qed.

(** the mode a directory is created with: owner write added if missing *)
Lemma ftype_writable mode : ftype (if Z.land mode 128 =? 0 then Z.lor mode 128 else mode) = ftype mode.
Proof. destruct (_ =? 0); [|reflexivity]. now apply land_lor_disjoint. Qed.

Lemma land_bit7 x : Z.land x 128 = 0 \/ Z.land x 128 = 128.
Proof.
  change 128 with (2 ^ 7).
  destruct (Z.testbit x 7) eqn:Tb; [right|left]; apply Z.bits_inj'; intros n Hn;
    rewrite Z.land_spec, ?Z.bits_0, (Z.pow2_bits_eqb 7 n) by lia;
    destruct (Z.eqb_spec 7 n) as [E|Ne]; try subst n; rewrite ?Tb, ?andb_false_r; reflexivity.
Qed.

Lemma is_dev_ftype m : is_dev (ftype m) = is_dev m.
Proof. unfold is_dev, ftype. now rewrite <- Z.land_assoc, Z.land_diag. Qed.

Definition kind_of_mode (mode : Z) : lkind :=
  if is_dir mode then KDir else if is_link mode then KLnk else if is_reg mode then KReg else KOther (ftype mode).

(** each type test compares [ftype mode] with a constant of its own: a test that holds says what [ftype mode]
    is (by [Z.eqb_eq]), and rewriting with that decides the other tests *)
Lemma kind_of_dir m : is_dir m = true -> kind_of_mode m = KDir.
Proof. unfold kind_of_mode. now intros ->. Qed.

Lemma kind_of_link m : is_link m = true -> kind_of_mode m = KLnk.
Proof. intros H%Z.eqb_eq. unfold kind_of_mode, is_dir, is_link. now rewrite H. Qed.

Lemma kind_of_other m : is_dev m || is_special m = true -> kind_of_mode m = KOther (ftype m).
Proof.
  unfold kind_of_mode, is_dev, is_special, is_dir, is_link, is_reg. intros H.
  repeat (apply orb_true_iff in H; destruct H as [H|H]); apply Z.eqb_eq in H; now rewrite H.
Qed.

Lemma reg_only m :
  is_reg m = true -> is_dir m = false /\ is_link m = false /\ is_dev m = false /\ is_special m = false.
Proof. intros H%Z.eqb_eq. unfold is_dir, is_link, is_dev, is_special. now rewrite H. Qed.

Record wanted (o : gopts) (e : fentry) (st : lstat) : Prop := mkWanted {
  w_kind : l_kind st = kind_of_mode (e_mode e);
  w_perm : is_link (e_mode e) = false -> l_perm st = perm_of (e_mode e);
  w_mtime : g_times o = true -> is_link (e_mode e) = false -> l_mtime st = e_mtime e;
  w_uid : g_uid o && g_am_root o = true -> l_uid st = e_uid e;
  w_gid : g_gid o && g_am_root o = true -> l_gid st = e_gid e;
  w_link : is_link (e_mode e) = true -> l_link st = e_link e;
  w_rdev : is_dev (e_mode e) = true -> l_rdev st = e_rdev e
}.

(** [st] is the listed object up to its metadata: it has the type, the symlink target, the device numbers *)
Definition same_object (e : fentry) (st : lstat) : Prop :=
  l_kind st = kind_of_mode (e_mode e) /\
  (is_link (e_mode e) = true -> l_link st = e_link e) /\
  (is_dev (e_mode e) = true -> l_rdev st = e_rdev e).

Lemma set_perms_spec_wanted o e st0 : same_object e st0 -> wanted o e (set_perms_spec o e (e_mode e) st0).
Proof.
  intros (K & L & R). unfold set_perms_spec. change (ftype (e_mode e) =? c_S_IFLNK) with (is_link (e_mode e)).
  constructor; cbn [l_kind l_perm l_mtime l_uid l_gid l_link l_rdev l_nonempty];
    [exact K | now intros -> | now intros -> -> | now intros -> | now intros -> | exact L | exact R].
Qed.

Lemma same_object_dir e st : is_dir (e_mode e) = true -> l_kind st = KDir -> same_object e st.
Proof.
  intros Hd K. unfold same_object. rewrite K, (kind_of_dir _ Hd).
  apply Z.eqb_eq in Hd. unfold is_link, is_dev. now rewrite Hd.
Qed.

Lemma same_object_link e st :
  is_link (e_mode e) = true -> l_kind st = KLnk -> l_link st = e_link e -> same_object e st.
Proof.
  intros Hl K L. unfold same_object. rewrite K, (kind_of_link _ Hl).
  apply Z.eqb_eq in Hl. unfold is_dev. now rewrite Hl.
Qed.

Lemma same_object_other e st :
  is_dev (e_mode e) || is_special (e_mode e) = true -> l_kind st = KOther (ftype (e_mode e)) ->
  (is_dev (e_mode e) = true -> l_rdev st = e_rdev e) -> same_object e st.
Proof.
  intros Hv K R. unfold same_object. rewrite K, (kind_of_other _ Hv). split; [reflexivity|split; [|exact R]].
  intros Hl%Z.eqb_eq. unfold is_dev, is_special in Hv. now rewrite Hl in Hv.
Qed.

Lemma same_device_spec e st :
  same_device e st = true ->
  l_kind st = KOther (ftype (e_mode e)) /\ (is_dev (e_mode e) = true -> l_rdev st = e_rdev e).
Proof.
  unfold same_device. destruct (l_kind st) as [| | |t]; try discriminate.
  intros H. apply andb_true_iff in H. destruct H as [T R]. apply Z.eqb_eq in T. subst t.
  split; [reflexivity|]. intros Hv. rewrite Hv in R. now apply Z.eqb_eq.
Qed.

(** the generator makes these entries itself; regular files are requested from the sender, anything else
    is passed over *)
Definition made (o : gopts) (mode : Z) : bool :=
  is_dir mode || (g_links o && is_link mode) || ((g_devices o && is_dev mode) || (g_specials o && is_special mode)).

(** the mode of the generator pass: a directory stays writable by its owner until the touch-up pass *)
Definition first_mode (e : fentry) : Z :=
  if is_dir (e_mode e) && (Z.land (e_mode e) 128 =? 0) then Z.lor (e_mode e) 128 else e_mode e.

(** only a directory has the unlink check of [gen_entry'] and a touch-up pass *)
Lemma gen_entry'_eq o e dst skip now :
  is_dir (e_mode e) && negb (g_dry o) = false -> gen_entry' o e dst skip now = gen_entry o e dst skip now.
Proof. intros H. unfold gen_entry'. destruct dst; [|reflexivity]. now rewrite H. Qed.

Lemma touch_up_nondir o e st : is_dir (e_mode e) = false -> touch_up_ops o e st = [].
Proof. intros Hd. unfold touch_up_ops. now rewrite Hd. Qed.

(** the touch-up pass completes what the generator began with the writable mode *)
Lemma touch_up_result o e now st0 c :
  g_dry o = false ->
  let st1 := set_perms_spec o e (first_mode e) st0 in
  run_ops (e_name e) now (PNode st1 c) (touch_up_ops o e st1) = PNode (set_perms_spec o e (e_mode e) st0) c.
Proof.
  intros D. unfold touch_up_ops, first_mode. rewrite D.
  destruct (is_dir (e_mode e)); [|reflexivity]. destruct (Z.land (e_mode e) 128 =? 0) eqn:W; [|reflexivity].
  cbn [negb orb andb]. rewrite set_perms_result by exact D. f_equal. apply set_perms_spec_twice.
  pose proof (ftype_writable (e_mode e)) as L. rewrite W in L. unfold is_link. now rewrite L.
Qed.

Section Makes.
  Variables (o : gopts) (e : fentry) (now : Z).
  Hypothesis D : g_dry o = false.

  (** [ops] leave at the entry's path the listed object, with the metadata setPerms gives it for [m] *)
  Definition makes (m : Z) (s : pstate) (ops : list fsop) : Prop :=
    exists st0 c, same_object e st0 /\ run_ops (e_name e) now s ops = PNode (set_perms_spec o e m st0) c.

  (** the object is there already, or one operation creates it, after unlinking what is in the way *)
  Lemma makes_keep m st c : same_object e st -> makes m (PNode st c) (set_perms_ops o e m st).
  Proof. intros SO. exists st, c. now rewrite set_perms_result. Qed.

  Lemma makes_new m s mk st' c :
    apply_op (e_name e) now s mk = PNode st' c -> same_object e st' -> makes m s (mk :: set_perms_ops o e m st').
  Proof. intros A SO. exists st', c. now rewrite run_ops_cons, A, set_perms_result. Qed.

  Lemma makes_remove m s ops : makes m PAbsent ops -> makes m s (OpRemove (e_name e) :: ops).
  Proof. unfold makes. now rewrite run_ops_cons, apply_remove. Qed.

  Lemma gen_entry'_makes s skip :
    made o (e_mode e) = true ->
    let r := gen_entry' o e (lstat_of s) skip now in snd r = ReqError \/ makes (first_mode e) s (fst r).
  Proof.
    unfold made, first_mode. intros M. destruct (is_dir (e_mode e)) eqn:Hd; cbn [andb].
    - (* a directory *)
      unfold gen_entry', gen_entry. rewrite Hd, D.
      (* [first_mode e] is now, word for word, the mode [gen_entry] creates the directory with *)
      set (mode' := if Z.land (e_mode e) 128 =? 0 then _ else _). set (new := [OpMkdirAll _ _] ++ _).
      assert (New : makes mode' PAbsent new)
        by (apply makes_new with (1 := apply_mkdir _ _ _); now apply same_object_dir).
      destruct s as [|st c]; cbn [lstat_of]; [right; exact New|]. destruct (l_kind st) eqn:K.
      { rewrite andb_false_r. right. now apply makes_keep, same_object_dir. }
      (* what is not a directory is unlinked first, and the entry fails if that cannot be done *)
      all: rewrite andb_true_r; destruct (removable st); [right; now apply makes_remove|now left].
    - rewrite gen_entry'_eq by now rewrite Hd. unfold gen_entry, new_symlink. rewrite Hd, D.
      destruct (g_links o && is_link (e_mode e)) eqn:Hl; cbn [orb] in M.
      + (* a symlink *)
        apply andb_true_iff in Hl. destruct Hl as [_ Hl]. set (new := [OpSymlink _ _] ++ _).
        assert (New : makes (e_mode e) s new)
          by (apply makes_new with (1 := apply_symlink _ _ _ _); now apply same_object_link).
        destruct s as [|st c]; cbn [lstat_of]; [right; exact New|]. destruct (l_kind st) eqn:K.
        * (* over a directory the rename fails *) now left.
        * right; exact New.
        * (* a symlink with the listed target is kept *)
          destruct (list_eqb (l_link st) (e_link e)) eqn:L; right; [|exact New].
          apply makes_keep, same_object_link; try assumption. now apply list_eqb_eq.
        * right; exact New.
      + (* a device or special file *)
        rewrite M.
        assert (Hv : is_dev (e_mode e) || is_special (e_mode e) = true).
        { apply orb_true_iff in M.
          destruct M as [[_ ->]%andb_true_iff|[_ ->]%andb_true_iff]; [reflexivity|apply orb_true_r]. }
        set (new := [OpMknod _ _ _ _] ++ _).
        assert (New : makes (e_mode e) PAbsent new).
        { eapply makes_new; [now rewrite apply_mknod, is_dev_ftype|].
          apply same_object_other; [exact Hv|reflexivity|]. now intros ->. }
        destruct s as [|st c]; cbn [lstat_of]; [right; exact New|].
        destruct (same_device e st) eqn:SD; [|destruct (removable st)].
        * right. destruct (same_device_spec _ _ SD) as [K R]. now apply makes_keep, same_object_other.
        * right. now apply makes_remove.
        * now left.
  Qed.

  (** Whatever was at the path (nothing, the same object, or something else that could be unlinked), a
      directory, and with the respective option a symlink, device or special file, ends as the listed object
      with the metadata of setPerms for its mode. *)
  Theorem entry_step_made Hplain ac it s s' rq :
    made o (e_mode e) = true -> entry_step Hplain o ac it e now s = (s', rq) -> rq <> ReqError ->
    exists st0 c, same_object e st0 /\ s' = PNode (set_perms_spec o e (e_mode e) st0) c.
  Proof.
    intros M E Hne. unfold entry_step in E. pose proof (gen_entry'_makes s (skip_of Hplain ac it e s) M) as G.
    destruct (gen_entry' _ _ _ _ _) as [ops rq0]. cbn [fst snd] in G. destruct G as [->|(st0 & c & SO & R)].
    { injection E as _ <-. now elim Hne. }
    rewrite R in E. exists st0, c. split; [exact SO|]. rewrite <- (touch_up_result o e now st0 c D).
    destruct rq0; injection E as <- <-; [reflexivity..|now elim Hne].
  Qed.

  Corollary entry_step_wanted Hplain ac it s s' rq :
    made o (e_mode e) = true -> entry_step Hplain o ac it e now s = (s', rq) -> rq <> ReqError ->
    exists st c, s' = PNode st c /\ wanted o e st.
  Proof.
    intros M E Hne. destruct (entry_step_made _ _ _ _ _ _ M E Hne) as (st0 & c & SO & ->).
    eauto using set_perms_spec_wanted.
  Qed.
End Makes.

(** an up-to-date regular file: setPerms only, and without -p with the permissions the file has *)
Lemma entry_step_uptodate Hplain o ac it e now st c s' rq :
  g_dry o = false -> is_reg (e_mode e) = true ->
  skip_of Hplain ac it e (PNode st c) = true ->
  entry_step Hplain o ac it e now (PNode st c) = (s', rq) ->
  rq = ReqNone /\
  s' = PNode (set_perms_spec o e (if g_perms o then e_mode e
                                  else Z.lor (Z.land (e_mode e) (Z.lnot 511)) (l_perm st)) st) c.
Proof.
  intros D Hr SK E.
  (* only a regular file is ever found up to date *)
  assert (K : l_kind st = KReg) by (cbn [skip_of] in SK; now destruct (l_kind st)).
  destruct (reg_only _ Hr) as (Td & Tl & Tv & Ts).
  unfold entry_step in E. rewrite gen_entry'_eq, SK in E by now rewrite Td. cbn [lstat_of] in E.
  unfold gen_entry in E. rewrite Td, Tl, Tv, Ts, Hr, K in E. rewrite !andb_false_r in E.
  cbn [orb negb] in E. rewrite set_perms_result, touch_up_nondir in E by assumption.
  now injection E as <- <-.
Qed.

Lemma recv_unverified o e c old now s :
  run_ops (e_name e) now s (recv_ops o e c false old now) = s.
Proof. unfold recv_ops. destruct (g_dry o); reflexivity. Qed.

Lemma recv_commit_result o e c old now s :
  g_dry o = false ->
  run_ops (e_name e) now s (recv_ops o e c true old now) =
  PNode (set_perms_spec o e (match old with Some p => if g_perms o then e_mode e else p | None => e_mode e end)
                        (fresh KReg 384 now)) c.
Proof.
  intros D. unfold recv_ops. rewrite D. cbn [app].
  rewrite !run_ops_cons, apply_commit, run_ops_app, set_perms_result by exact D. reflexivity.
Qed.

Lemma map_id_unlisted m id : (forall v, ~ In (id, v) m) -> map_id m id = id.
Proof.
  induction m as [|[k v] m IH]; intros H; [reflexivity|]. cbn [map_id].
  destruct (Z.eqb_spec k id) as [->|_].
  - exfalso. apply (H v). now left.
  - apply IH. intros v' Hin. apply (H v'). now right.
Qed.

Lemma map_id_listed m id v : NoDup (map fst m) -> In (id, v) m -> map_id m id = v.
Proof.
  induction m as [|[k w] m IH]; intros ND Hin; [destruct Hin|]. cbn [map_id].
  inversion ND as [|? ? Hnot ND']; subst.
  destruct Hin as [E|Hin].
  - injection E as -> ->. now rewrite Z.eqb_refl.
  - destruct (Z.eqb_spec k id) as [->|_]; [|now apply IH].
    exfalso. apply Hnot. change id with (fst (id, v)). now apply in_map.
Qed.

(** an id the sender listed with a name becomes the local id of that name, if there is one *)
Lemma id_map_of_listed lookup ids id name :
  NoDup (map fst ids) -> In (id, name) ids ->
  map_id (id_map_of lookup ids) id = match lookup name with Some l => l | None => id end.
Proof.
  intros ND Hin. apply map_id_listed; unfold id_map_of.
  - now rewrite map_map.
  - apply in_map_iff. now exists (id, name).
Qed.

(** ** the sender's request loop in a dry run (Model/Session.v): it echoes what it reads and nothing else *)
Section DrySender.
  Variable H : list Z -> list Z.
  Variable seed chunk : Z.

  Lemma dry_sender_files_irrelevant fuel : forall files files' phase s out,
    sender_session H seed chunk fuel true files phase s out =
    sender_session H seed chunk fuel true files' phase s out.
  Proof.
    induction fuel as [|f IH]; intros; [reflexivity|].
    cbn [sender_session]. destruct (rd32 s) as [[idx r]|]; [|reflexivity].
    destruct (idx =? -1); [destruct (phase =? 0); [apply IH|reflexivity]|apply IH].
  Qed.

  Lemma dry_sender_echo fuel : forall files phase s out out' rest,
    bytesb s = true ->
    sender_session H seed chunk fuel true files phase s out = SessDone out' rest ->
    exists c, s = c ++ rest /\ out' = out ++ c.
  Proof.
    induction fuel as [|f IH]; intros files phase s out out' rest B E; [discriminate|].
    cbn [sender_session] in E. destruct (rd32 s) as [[idx r]|] eqn:R; [|discriminate].
    destruct (rd32_inv _ _ _ B R) as [-> Br].
    (* every index read, -1 included, is written back before the loop goes on *)
    assert (Rec : forall ph, sender_session H seed chunk f true files ph r (out ++ le32 idx) = SessDone out' rest ->
                  exists c, le32 idx ++ r = c ++ rest /\ out' = out ++ c).
    { intros ph E'. destruct (IH _ _ _ _ _ _ Br E') as [c [-> ->]]. exists (le32 idx ++ c). rewrite !app_assoc. split; reflexivity. }
    destruct (Z.eqb_spec idx (-1)) as [->|_]; [destruct (phase =? 0)|]; [exact (Rec _ E)| |exact (Rec _ E)].
    injection E as <- <-. exists (le32 (-1)). split; reflexivity.
  Qed.

  (** a dry-run sender fails only when the stream ends early (or, in the model, the fuel runs out) *)
  Lemma dry_sender_errors fuel : forall files phase s out out' e,
    sender_session H seed chunk fuel true files phase s out = SessErr out' e -> e = SeShort \/ e = SeFuel.
  Proof.
    induction fuel as [|f IH]; intros files phase s out out' e E; cbn [sender_session] in E.
    - injection E as _ E. auto.
    - destruct (rd32 s) as [[idx r]|]; [|injection E as _ E; auto].
      destruct (idx =? -1); [destruct (phase =? 0); [eapply IH; eauto|discriminate]|eapply IH; eauto].
  Qed.
End DrySender.

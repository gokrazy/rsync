(** What a serving daemon lists lies inside the module (C06), and under which names it is sent (C01).  The
    naming results are about requests spelled from ordinary components ([good_path]): for those, filepath.Clean,
    the walk root, the strip prefix, filepath.Dir and filepath.Base are computed, each from how [split_slash]
    sees the request. *)
From Coq Require Import ZArith List Bool Lia.
From RV Require Import Model.Bytes Model.Flist Model.Tree Model.Serve Proofs.BytesProofs Proofs.TreeProofs.
Import ListNotations.
Open Scope Z_scope.

Lemma served_inside t req p : In p (serve_paths t req) -> path_in t p.
Proof.
  unfold serve_paths. destruct (negb (valid_path (walk_root req))); [intros []|].
  destruct (lookup t (comps_of (walk_root req))) as [sub|] eqn:L; [|intros []].
  intros [<-|H].
  - eapply lookup_path_in; exact L.
  - destruct (select_sound [] _ _ _ _ H) as (q & _ & -> & P & _).
    rewrite rev_involutive. eapply path_in_app; eauto.
Qed.

Lemma daemon_serve_sound mname t reqs nm :
  In nm (daemon_serve mname t reqs) ->
  exists r p, In r reqs /\ In p (serve_paths t (strip_module mname r)) /\
              nm = wire_name (get_strip (strip_module mname r)) p /\ path_in t p.
Proof.
  intros (r & Hr & (p & E & Hp)%in_map_iff)%in_flat_map.
  exists r, p. split; [exact Hr|]. split; [exact Hp|]. split; [now symmetry|exact (served_inside _ _ _ Hp)].
Qed.

Lemma dotdot_invalid p : In [dot; dot] (split_slash p []) -> valid_path p = false.
Proof.
  intros H. unfold valid_path. apply orb_false_iff. split.
  - apply list_eqb_neq. intros ->. now destruct H as [[=]|[]].
  - apply not_true_is_false. intros F. rewrite forallb_forall in F. exact (diff_false_true (F _ H)).
Qed.

Lemma serve_complete t req sub rel node :
  valid_path (walk_root req) = true ->
  lookup t (comps_of (walk_root req)) = Some sub -> lookup sub rel = Some node ->
  In (comps_of (walk_root req) ++ rel) (serve_paths t req).
Proof.
  intros Hv L Lr. unfold serve_paths. rewrite Hv. cbn [negb]. rewrite L.
  destruct rel as [|c r]; [left; now rewrite app_nil_r|right].
  rewrite <- (rev_involutive (comps_of (walk_root req))) at 1.
  eapply select_complete; [apply Nat.le_refl|discriminate|exact (lookup_path_in _ _ _ Lr)|apply allowed_nil].
Qed.

Lemma render_ne p : p <> [] -> render p = render_from p.
Proof. destruct p; [congruence|reflexivity]. Qed.

Lemma render_from_cons : forall r c, render_from (c :: r) = c ++ flat_map (cons slash) r.
Proof.
  induction r as [|d r IH]; intros c; [symmetry; apply app_nil_r|].
  change (render_from (c :: d :: r)) with (c ++ slash :: render_from (d :: r)). now rewrite IH.
Qed.

Lemma render_from_app p0 rel : p0 <> [] -> rel <> [] ->
  render_from (p0 ++ rel) = render_from p0 ++ slash :: render_from rel.
Proof.
  destruct p0 as [|c r], rel as [|d rel']; try congruence. intros _ _.
  cbn [app]. rewrite !render_from_cons, flat_map_app, <- app_assoc. reflexivity.
Qed.

Lemma trim_prefix_app a x : trim_prefix a (a ++ x) = x.
Proof.
  unfold trim_prefix. rewrite firstn_app, Nat.sub_diag, firstn_all. cbn [firstn]. rewrite app_nil_r.
  rewrite list_eqb_refl. rewrite skipn_app, Nat.sub_diag, skipn_all. reflexivity.
Qed.

Lemma wire_name_contents p0 rel : p0 <> [] ->
  wire_name (render p0 ++ [slash]) (p0 ++ rel) = render rel.
Proof.
  intros H0. unfold wire_name.
  (* the strip prefix is not empty *)
  destruct (render p0 ++ [slash]) as [|s0 s'] eqn:Es; [now apply app_eq_nil in Es|].
  rewrite <- Es. clear Es s0 s'.
  destruct rel as [|c r].
  - rewrite app_nil_r, list_eqb_refl. reflexivity.
  - assert (N : p0 ++ c :: r <> []) by (destruct p0; discriminate).
    rewrite !render_ne, render_from_app by (assumption || discriminate).
    change (slash :: render_from (c :: r)) with ([slash] ++ render_from (c :: r)). rewrite app_assoc, trim_prefix_app.
    rewrite list_eqb_neq; [reflexivity|]. intros E. apply (f_equal (@length Z)) in E.
    rewrite !app_length in E. cbn [length] in E. lia.
Qed.

(** ordinary components: no slash inside, none empty, "." or ".." *)
Definition noslash (c : list Z) : bool := forallb (fun x => negb (x =? slash)) c.
Definition good_comp (c : list Z) : bool := noslash c && valid_elem c.
Definition good_path (p : path) : Prop := Forall (fun c => good_comp c = true) p.

Lemma good_path_both p : good_path p ->
  Forall (fun c => noslash c = true) p /\ Forall (fun c => valid_elem c = true) p.
Proof. intros G. split; refine (Forall_impl _ _ G); intros c [Hn Hv]%andb_true_iff; assumption. Qed.

Lemma split_slash_app a : forall b cur,
  split_slash (a ++ slash :: b) cur = split_slash a cur ++ split_slash b [].
Proof.
  induction a as [|x a IH]; intros b cur; cbn [app split_slash]; [now rewrite Z.eqb_refl|].
  destruct (x =? slash); [now rewrite IH|apply IH].
Qed.

Lemma split_noslash c : forall cur, noslash c = true -> split_slash c cur = [rev cur ++ c].
Proof.
  induction c as [|x c IH]; intros cur Hn; cbn [split_slash]; [now rewrite app_nil_r|].
  cbn [noslash forallb] in Hn. apply andb_true_iff in Hn as [Hx%negb_true_iff Hc].
  rewrite Hx, IH by exact Hc. cbn [rev]. now rewrite <- app_assoc.
Qed.

Lemma split_render_from : forall p, p <> [] -> Forall (fun c => noslash c = true) p ->
  split_slash (render_from p) [] = p.
Proof.
  induction p as [|c r IH]; intros Hne Hall; [congruence|].
  inversion Hall as [|? ? Hc Hr]; subst.
  destruct r as [|c' r']; [now apply split_noslash|].
  change (render_from (c :: c' :: r')) with (c ++ slash :: render_from (c' :: r')).
  rewrite split_slash_app, split_noslash, IH by (discriminate || assumption). reflexivity.
Qed.

(** the components of "lead/c1/.../ck" and of "lead/c1/.../ck/" *)
Lemma split_spelled lead p : p <> [] -> good_path p ->
  split_slash (lead ++ slash :: render_from p) [] = split_slash lead [] ++ p /\
  split_slash (lead ++ slash :: render_from p ++ [slash]) [] = split_slash lead [] ++ p ++ [[]].
Proof. intros Hne [Hn _]%good_path_both. now rewrite !split_slash_app, split_render_from. Qed.

Lemma render_from_head p : p <> [] -> good_path p ->
  exists x l, render_from p = x :: l /\ (x =? slash) = false.
Proof.
  destruct p as [|c r]; [congruence|]. intros _ G. inversion G as [|? ? [Hn Hv]%andb_true_iff _]; subst.
  destruct c as [|x l]; [discriminate Hv|].
  exists x, (l ++ flat_map (cons slash) r). split; [apply render_from_cons|].
  cbn [noslash forallb] in Hn. now apply andb_true_iff in Hn as [Hx%negb_true_iff _].
Qed.

Lemma has_suffix_slash_app a c : c <> [] -> has_suffix_slash (a ++ c) = has_suffix_slash c.
Proof.
  intros Hc. unfold has_suffix_slash. rewrite rev_app_distr. destruct (rev c) as [|y l] eqn:E; [|reflexivity].
  apply (f_equal (@rev Z)) in E. rewrite rev_involutive in E. contradiction.
Qed.

Lemma has_suffix_slash_noslash c : noslash c = true -> has_suffix_slash c = false.
Proof.
  intros Hn. unfold has_suffix_slash. destruct (rev c) as [|y l] eqn:E; [reflexivity|].
  unfold noslash in Hn. rewrite forallb_forall in Hn. apply negb_true_iff, Hn, in_rev. rewrite E. now left.
Qed.

Lemma no_suffix_slash : forall p lead, p <> [] -> good_path p -> has_suffix_slash (lead ++ render_from p) = false.
Proof.
  induction p as [|c r IH]; intros lead Hne G; [congruence|].
  inversion G as [|? ? [Hn Hv]%andb_true_iff Hr]; subst. destruct r as [|d r].
  - cbn [render_from]. rewrite has_suffix_slash_app by (intros ->; discriminate Hv). exact (has_suffix_slash_noslash c Hn).
  - change (render_from (c :: d :: r)) with (c ++ [slash] ++ render_from (d :: r)).
    rewrite 2 app_assoc. apply IH; [discriminate|exact Hr].
Qed.

Lemma split_render p : p <> [] -> good_path p ->
  list_eqb (render p) [dot] = false /\ split_slash (render p) [] = p.
Proof.
  intros Hne G. destruct (good_path_both p G) as [Hn Hv].
  rewrite render_ne by exact Hne.
  pose proof (split_render_from p Hne Hn) as S. split; [|exact S].
  apply list_eqb_neq. intros E. rewrite E in S. subst p. inversion Hv as [|? ? Hc _]. discriminate Hc.
Qed.

Lemma comps_render p : good_path p -> comps_of (render p) = p.
Proof.
  intros G. destruct p as [|c r]; [reflexivity|]. unfold comps_of.
  now destruct (split_render (c :: r)) as [-> ->].
Qed.

Lemma valid_render p : good_path p -> valid_path (render p) = true.
Proof.
  intros G. destruct p as [|c r]; [reflexivity|]. unfold valid_path.
  destruct (split_render (c :: r)) as [-> ->]; [discriminate|exact G|].
  apply forallb_forall, Forall_forall, good_path_both, G.
Qed.

Lemma join_is_render : forall p, join_slash p = render_from p.
Proof.
  induction p as [|c r IH]; [reflexivity|]. destruct r as [|c' r']; [reflexivity|].
  change (join_slash (c :: c' :: r')) with (c ++ [slash] ++ join_slash (c' :: r')). now rewrite IH.
Qed.

(** components that filepath.Clean drops *)
Definition skipped (c : list Z) : bool := list_eqb c [] || list_eqb c [dot].

Lemma clean_skipped rooted j : forall rest stack, forallb skipped j = true ->
  clean_comps rooted (j ++ rest) stack = clean_comps rooted rest stack.
Proof.
  induction j as [|c j IH]; intros rest stack H; [reflexivity|].
  cbn [forallb] in H. apply andb_true_iff in H as [Hc Hj]. unfold skipped in Hc.
  cbn [app clean_comps]. rewrite Hc. now apply IH.
Qed.

Lemma clean_good rooted p : forall rest stack, Forall (fun c => valid_elem c = true) p ->
  clean_comps rooted (p ++ rest) stack = clean_comps rooted rest (rev p ++ stack).
Proof.
  induction p as [|c r IH]; intros rest stack Hall; [reflexivity|].
  inversion Hall as [|? ? Hc Hr]; subst.
  unfold valid_elem in Hc. apply andb_true_iff in Hc as [[H1 H2]%andb_true_iff H3].
  apply negb_true_iff in H1, H2, H3.
  cbn [app clean_comps]. rewrite H1, H2, H3. cbn [orb].
  rewrite IH by exact Hr. cbn [rev]. now rewrite <- app_assoc.
Qed.

(** filepath.Clean of a request whose components are droppable ones ([j1]),
    then ordinary ones ([p]), then droppable ones again ([j2]): the ordinary
    ones joined, behind a slash if the request began with one *)
Lemma path_clean_plain c0 s j1 p j2 :
  split_slash (c0 :: s) [] = j1 ++ p ++ j2 ->
  forallb skipped j1 = true -> forallb skipped j2 = true -> good_path p ->
  path_clean (c0 :: s) = if c0 =? slash then slash :: render_from p else render p.
Proof.
  intros E H1 H2 G. unfold path_clean.
  (* [<- app_nil_r]: [clean_skipped] wants something behind [j2] *)
  rewrite E, clean_skipped, clean_good, <- (app_nil_r j2), clean_skipped by (assumption || apply good_path_both, G).
  cbn [clean_comps]. rewrite app_nil_r, rev_involutive, join_is_render.
  destruct p as [|c r]; [reflexivity|]. unfold render.
  now destruct (render_from_head (c :: r)) as (x & l & -> & _).
Qed.

(** the spellings "/c1/.../ck/", "/c1/.../ck" and "c1/.../ck" *)
Lemma path_clean_dir p : good_path p ->
  path_clean (slash :: render_from p ++ [slash]) = slash :: render_from p.
Proof.
  intros G. destruct p as [|c r]; [reflexivity|].
  apply (path_clean_plain slash _ [[]] (c :: r) [[]]); [|reflexivity|reflexivity|exact G].
  exact (proj2 (split_spelled [] (c :: r) ltac:(discriminate) G)).
Qed.

Lemma walk_root_abs p : good_path p ->
  walk_root (slash :: render_from p) = render p /\ walk_root (slash :: render_from p ++ [slash]) = render p.
Proof.
  intros G. destruct p as [|c r]; [now split|].
  destruct (split_spelled [dot] (c :: r)) as [S0 S1]; [discriminate|exact G|]. split.
  - apply (path_clean_plain dot _ [[dot]] (c :: r) []); [|reflexivity|reflexivity|exact G]. now rewrite app_nil_r.
  - now apply (path_clean_plain dot _ [[dot]] (c :: r) [[]]).
Qed.

Lemma walk_root_rel p : p <> [] -> good_path p -> walk_root (render_from p) = render p.
Proof.
  intros Hne G. pose proof (split_render_from p Hne (proj1 (good_path_both p G))) as S.
  destruct (render_from_head p Hne G) as (x & l & E & Hx). rewrite E in *.
  unfold walk_root. rewrite Hx, (path_clean_plain x l [] p []), Hx; auto. now rewrite app_nil_r.
Qed.

Lemma get_strip_dir p : p <> [] -> good_path p -> get_strip (slash :: render_from p ++ [slash]) = render p ++ [slash].
Proof.
  intros Hne G. unfold get_strip. rewrite path_clean_dir by assumption. rewrite list_eqb_neq.
  - change (slash :: render_from p ++ [slash]) with ((slash :: render_from p) ++ [slash]).
    rewrite has_suffix_slash_app by discriminate. now rewrite render_ne.
  - intros [= E]. now apply app_eq_nil in E.
Qed.

Lemma get_strip_no_suffix req : has_suffix_slash req = false -> get_strip req = [].
Proof. intros H. unfold get_strip. rewrite H. now destruct (list_eqb req [slash]). Qed.

Lemma names_listed t req p0 sub rel node :
  good_path p0 -> walk_root req = render p0 ->
  lookup t p0 = Some sub -> lookup sub rel = Some node ->
  In (wire_name (get_strip req) (p0 ++ rel)) (serve_names t req).
Proof.
  intros G W L Lr. apply in_map.
  pose proof (serve_complete t req sub rel node) as H.
  rewrite W, valid_render, comps_render in H by exact G. exact (H eq_refl L Lr).
Qed.

Lemma names_listed_whole t req p0 sub rel node :
  good_path p0 -> walk_root req = render p0 -> has_suffix_slash req = false ->
  lookup t p0 = Some sub -> lookup sub rel = Some node ->
  In (render (p0 ++ rel)) (serve_names t req).
Proof.
  intros G W S L Lr. pose proof (names_listed t req p0 sub rel node G W L Lr) as H.
  now rewrite (get_strip_no_suffix req S) in H.
Qed.

(** the client as sender splits "a/c" into filepath.Dir (the text up to the last slash, cleaned) and
    filepath.Base (the text behind it) *)
Lemma client_split_base a c : noslash c = true -> c <> [] ->
  client_split (a ++ slash :: c) = (path_clean (a ++ [slash]), c).
Proof.
  intros Hn Hc. assert (L : last_comp (a ++ slash :: c) = c).
  { unfold last_comp. rewrite split_slash_app, (split_noslash c) by exact Hn. apply last_last. }
  unfold client_split, path_base, path_dir. rewrite L.
  change (a ++ slash :: c) with (a ++ [slash] ++ c). rewrite app_assoc.
  rewrite has_suffix_slash_app, has_suffix_slash_noslash by assumption.
  rewrite app_length, Nat.add_sub, firstn_app, firstn_all, Nat.sub_diag. cbn [firstn]. now rewrite app_nil_r.
Qed.

(** the source "/pre/c": what stands before the last slash is "" or "/pre" *)
Lemma client_split_abs (pre : list (list Z)) (c : list Z) : good_path pre -> good_comp c = true ->
  client_split (slash :: render_from (pre ++ [c])) = (slash :: render_from pre, c).
Proof.
  intros Hpre [Hn Hv]%andb_true_iff. assert (Hc : c <> []) by (intros ->; discriminate Hv).
  destruct pre as [|b r]; [exact (client_split_base [] c Hn Hc)|].
  rewrite render_from_app, <- (path_clean_dir (b :: r)) by (discriminate || exact Hpre).
  exact (client_split_base (slash :: render_from (b :: r)) c Hn Hc).
Qed.

Lemma client_split_slash req : client_split (req ++ [slash]) = (req ++ [slash], [slash]).
Proof. unfold client_split. now rewrite has_suffix_slash_app by discriminate. Qed.

Lemma client_names_open t req local requested p cs :
  client_split req = (local, requested) -> good_path p -> walk_root local = render p ->
  lookup t p = Some (TDir cs) -> client_names t req = serve_names (TDir cs) requested.
Proof. intros S G W L. unfold client_names. now rewrite S, W, valid_render, comps_render, L. Qed.

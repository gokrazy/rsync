(** What a regular block layout ([ChecksumProofs.regular]) means for the receiver: the blocks tile the
    basis, each can be read back, and a transmission that references all of them in order makes
    receiveData commit the basis. *)
From Coq Require Import ZArith List Bool Lia.
From RV Require Import Model.Bytes Model.Checksum Model.Delta Proofs.BytesProofs Proofs.ChecksumProofs
     Proofs.DeltaProofs.
Import ListNotations.
Open Scope Z_scope.

Lemma regular_tile h n : regular h n ->
  (forall i, 0 <= i < h_count h -> 1 <= block_len h i <= h_blen h /\ i * h_blen h + block_len h i <= n) /\
  (forall i, 0 <= i < h_count h - 1 -> block_len h i = h_blen h) /\
  (0 < n -> 1 <= h_count h /\ (h_count h - 1) * h_blen h + block_len h (h_count h - 1) = n) /\
  (n = 0 -> h_count h = 0).
Proof.
  intros Hreg. pose proof Hreg as (Hb & Hc & _).
  split; [|split; [|split]].
  - intros i Hi. destruct (block_layout h n i Hreg Hi) as (-> & ? & _). lia.
  - intros i Hi. destruct (block_layout h n i Hreg ltac:(lia)) as (-> & _ & _ & L4). specialize (L4 ltac:(lia)). lia.
  - intros Hpos. pose proof (count_pos h n Hpos Hreg). split; [lia|].
    now apply (block_layout h n (h_count h - 1) Hreg ltac:(lia)).
  - intros ->. rewrite Hc. apply Z.div_small. lia.
Qed.

Section Tiling.
  Variables (basis : list Z) (h : sum_head).
  Hypothesis Hreg : regular h (lenZ basis).

  Lemma refs_readable i : 0 <= i < h_count h ->
    exists b, ref_bytes basis h i = Some b /\ lenZ b = block_len h i.
  Proof.
    intros Hi. destruct (regular_tile h _ Hreg) as (Hin & _).
    destruct (Hin i Hi) as [Hl Hin']. assert (0 <= i * h_blen h) by (apply Z.mul_nonneg_nonneg; lia).
    eexists. split; [apply ref_bytes_inside|apply lenZ_slice]; lia.
  Qed.

  (** The references to blocks k, k+1, ..., count-1, in order, denote the
      basis from byte k * blockLength on. *)
  Lemma denote_refs_suffix : forall m k, Z.of_nat k + Z.of_nat m = h_count h ->
    denote basis h (map (fun j => Ref (Z.of_nat j)) (seq k m)) =
    Some (dropZ (Z.of_nat k * h_blen h) basis).
  Proof.
    pose proof (lenZ_nonneg basis) as Hn. destruct (regular_tile h _ Hreg) as (Hin & Hfull & Hlast & Hzero).
    induction m as [|m IH]; intros k Hk; cbn [seq map denote].
    - (* behind the last block nothing is left *)
      rewrite dropZ_all; [reflexivity|]. replace (Z.of_nat k) with (h_count h) by lia.
      destruct (Z.eq_dec (lenZ basis) 0) as [E|E]; [rewrite (Hzero E); lia|].
      destruct (Hlast ltac:(lia)) as [Hc He], (Hin (h_count h - 1) ltac:(lia)). lia.
    - destruct (Hin (Z.of_nat k) ltac:(lia)) as [Hl Hi].
      assert (H0 : 0 <= Z.of_nat k * h_blen h) by (apply Z.mul_nonneg_nonneg; lia).
      rewrite ref_bytes_inside, (IH (S k)) by lia. f_equal.
      replace (Z.of_nat (S k) * h_blen h) with (Z.of_nat k * h_blen h + h_blen h) by lia.
      destruct (Z.eq_dec (Z.of_nat k) (h_count h - 1)) as [E|E].
      + (* the last block runs to the end of the basis *)
        destruct (Hlast ltac:(lia)) as [_ He]. rewrite <- E in He.
        rewrite takeZ_all, (dropZ_all (_ + _)), app_nil_r by (rewrite ?lenZ_dropZ; lia). reflexivity.
      + rewrite (Hfull (Z.of_nat k)), <- (dropZ_dropZ (h_blen h)) by lia. apply takeZ_app_dropZ.
  Qed.

  Lemma denote_all_refs :
    denote basis h (map (fun j => Ref (Z.of_nat j)) (seq 0 (Z.to_nat (h_count h)))) = Some basis.
  Proof.
    assert (Hc : 0 <= h_count h).
    { destruct Hreg as (Hb & -> & _). pose proof (lenZ_nonneg basis). apply Z.div_pos; lia. }
    rewrite (denote_refs_suffix (Z.to_nat (h_count h)) 0) by lia. now rewrite dropZ_0.
  Qed.
End Tiling.

Lemma all_refs_commit (H : list Z -> list Z) seed basis h rest :
  (forall x, lenZ (H x) = 16) -> head_valid h -> regular h (lenZ basis) ->
  receive_data H seed (Some basis)
    (enc_head h ++ enc_tokens (map (fun j => Ref (Z.of_nat j)) (seq 0 (Z.to_nat (h_count h)))) ++
     le32 0 ++ filesum H seed basis ++ rest) = (Commit basis, rest).
Proof.
  intros H16 Hv Hreg.
  assert (Hwf : Forall wf_token (map (fun j => Ref (Z.of_nat j)) (seq 0 (Z.to_nat (h_count h))))).
  { apply Forall_forall. intros t Ht. apply in_map_iff in Ht. destruct Ht as (j & <- & Hj).
    apply in_seq in Hj. cbn [wf_token]. unfold head_valid in Hv. lia. }
  pose proof (receive_data_exact H seed basis h _ (filesum H seed basis) rest Hv Hwf (H16 _)) as E.
  rewrite (denote_all_refs basis h Hreg) in E. rewrite E, list_eqb_refl. reflexivity.
Qed.

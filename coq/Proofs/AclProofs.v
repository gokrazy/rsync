(** What [eval_rules] returns, read off the rule list: the rules in front of the deciding one are stepped
    over ([skips]), and the first that is not decides; if there is none, access is granted
    ([eval_rules_iff]).  Containment in a network prefix is interval membership for a masked base
    ([in_prefix_spec]). *)
From Coq Require Import ZArith List Bool Lia.
From RV Require Import Model.Acl.
Import ListNotations.
Open Scope Z_scope.

(** A rule that evaluation steps over for address [a]. *)
Definition skips (a : addr) (r : rule) : Prop :=
  exists act w, r = Rule act w /\ matches w a = false.

Lemma skips_dec a r : skips a r \/ ~ skips a r.
Proof.
  destruct r as [act w|]; [destruct (matches w a) eqn:M|].
  - right. intros (? & ? & [= <- <-] & ?). congruence.
  - left. exists act, w. auto.
  - right. intros (? & ? & ? & _). discriminate.
Qed.

Lemma eval_skip_prefix a pre rs :
  Forall (skips a) pre -> eval_rules (pre ++ rs) a = eval_rules rs a.
Proof.
  induction 1 as [|r pre (act & w & -> & M) _ IH]; cbn [app eval_rules]; [|rewrite M]; auto.
Qed.

Lemma eval_all_skipped a rs : Forall (skips a) rs -> eval_rules rs a = Granted.
Proof. intros F. rewrite <- (app_nil_r rs). now rewrite eval_skip_prefix. Qed.

Lemma first_unskipped a rs :
  Forall (skips a) rs \/
  exists pre r post, rs = pre ++ r :: post /\ Forall (skips a) pre /\ ~ skips a r.
Proof.
  induction rs as [|r rs IH]; [left; constructor|].
  destruct (skips_dec a r) as [S|N]; [|right; exists [], r, rs; auto].
  destruct IH as [F|(pre & r' & post & -> & F & N)]; [left; constructor; assumption|].
  right. exists (r :: pre), r', post. auto.
Qed.

Theorem eval_rules_iff a rs v :
  eval_rules rs a = v <->
  match v with
  | Granted => Forall (skips a) rs \/
               exists pre w post, rs = pre ++ Rule Allow w :: post /\
                                  Forall (skips a) pre /\ matches w a = true
  | Denied => exists pre w post, rs = pre ++ Rule Deny w :: post /\
                                 Forall (skips a) pre /\ matches w a = true
  | DeniedMalformed => exists pre post, rs = pre ++ Malformed :: post /\ Forall (skips a) pre
  | DeniedBadAddr => False
  end.
Proof.
  split.
  - intros <-. destruct (first_unskipped a rs) as [F|(pre & r & post & -> & F & N)].
    + rewrite (eval_all_skipped a rs F). left. exact F.
    + rewrite eval_skip_prefix by exact F. destruct r as [act w|]; cbn [eval_rules].
      * destruct (matches w a) eqn:M; [|destruct N; exists act, w; auto].
        destruct act; [right|]; exists pre, w, post; auto.
      * exists pre, post. auto.
  - destruct v.
    + intros [F|(pre & w & post & -> & F & M)].
      * exact (eval_all_skipped a rs F).
      * rewrite eval_skip_prefix by exact F. cbn [eval_rules]. now rewrite M.
    + intros (pre & w & post & -> & F & M).
      rewrite eval_skip_prefix by exact F. cbn [eval_rules]. now rewrite M.
    + intros (pre & post & -> & F). now rewrite eval_skip_prefix.
    + intros [].
Qed.

Lemma eval_never_badaddr rs a : eval_rules rs a <> DeniedBadAddr.
Proof. exact (proj1 (eval_rules_iff a rs DeniedBadAddr)). Qed.

(* With m = 2^(width - plen): base = m * q', and a = m * q + r with 0 <= r < m;
   the quotients agree exactly when a lies in [base, base + m). *)
Lemma in_prefix_spec width base plen a :
  plen <= width -> base mod 2 ^ (width - plen) = 0 ->
  in_prefix width base plen a = true <-> base <= a < base + 2 ^ (width - plen).
Proof.
  intros Hp Hmask. unfold in_prefix.
  rewrite Z.eqb_eq, !Z.shiftr_div_pow2 by lia.
  assert (Hm : 0 < 2 ^ (width - plen)) by (apply Z.pow_pos_nonneg; lia).
  revert Hmask Hm. generalize (2 ^ (width - plen)). intros m Hmask Hm.
  pose proof (Z_div_exact_full_2 base m ltac:(lia) Hmask) as Hb.
  pose proof (Z.div_mod a m ltac:(lia)) as Hd.
  pose proof (Z.mod_pos_bound a m Hm) as Hr.
  split.
  - intros E. lia.
  - intros H. symmetry. apply Z.div_unique_pos with (a - base); lia.
Qed.

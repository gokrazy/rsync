(** The hash search as a whole (C02, C16): the rolling registers hold the
    weak checksum of the window at every offset, so the probe at an offset
    finds a block exactly when one is listed with the window's sums; one run
    of the body is then a hit or a miss in terms of the positions alone
    ([body_step]); a loop rule for invariants built on that ([search_rule]);
    and [send_one], which always completes with tokens that cover the file
    ([send_one_covers]). *)
From Coq Require Import ZArith List Bool Lia FMapPositive.
From RV Require Import Model.Bytes Model.Checksum Model.Delta Model.Sender
     Proofs.BytesProofs Proofs.ChecksumProofs Proofs.DeltaProofs Proofs.SenderProofs.
Import ListNotations.
Open Scope Z_scope.

Section Window.
  Variable h : sum_head.
  Variable target : list Z.
  Let size := lenZ target.
  Hypothesis Hblen : 1 <= h_blen h.

  (** Registers at the top of the loop: [k] is the window length, [ahead] the
      file from the end of the window, and (s1, s2) are the two 16-bit halves
      of the weak checksum of the window target[off, off+k) — at *every*
      offset, not only after a match. *)
  Definition RInv (st : sstate) : Prop :=
    st_k st = Z.min (h_blen h) (size - st_off st) /\
    st_ahead st = dropZ (st_off st + st_k st) target /\
    st_s1 st = S1 (takeZ (st_k st) (st_cur st)) mod 65536 /\
    st_s2 st = S2 (takeZ (st_k st) (st_cur st)) mod 65536.

  (** the same of loose registers, as the loop body handles them: [RInv st] is [Regs] of the fields of [st] *)
  Definition Regs off k s1 s2 (cur ahead : list Z) : Prop :=
    k = Z.min (h_blen h) (size - off) /\ ahead = dropZ (off + k) target /\
    s1 = S1 (takeZ k cur) mod 65536 /\ s2 = S2 (takeZ k cur) mod 65536.

  (** readChunk leaves such registers *)
  Lemma read_regs off cur : 0 <= off <= size -> cur = dropZ off target ->
    let k := Z.min (h_blen h) (size - off) in
    let sum := checksum1 (takeZ k cur) in
    Regs off k (sum_lo sum) (sum_hi sum) cur (dropZ k cur).
  Proof.
    intros Hoff -> k sum. destruct (checksum1_halves (takeZ k (dropZ off target))) as (E1 & E2 & _).
    unfold Regs. rewrite dropZ_dropZ by (subst k; lia). auto.
  Qed.

  (** One rolling step from registers that describe the window at [off]:
      the window slides while the file goes on, and shrinks at its end. *)
  Lemma roll_regs off k s1 s2 cur ahead :
    0 <= off < size -> cur = dropZ off target -> Regs off k s1 s2 cur ahead ->
    exists u0, cur = u0 :: dropZ (off + 1) target /\
      if off + k <? size then
        exists uk, ahead = uk :: dropZ (off + k + 1) target /\
          let a := s1 - se u0 + se uk in
          Regs (off + 1) k (a mod 65536) ((s2 - k * se u0 + a) mod 65536)
               (dropZ (off + 1) target) (dropZ (off + k + 1) target)
      else
        Regs (off + 1) (k - 1) ((s1 - se u0) mod 65536) ((s2 - k * se u0) mod 65536)
             (dropZ (off + 1) target) ahead.
  Proof.
    intros Hoff -> (Hk & -> & Hs1 & Hs2).
    destruct (dropZ_cons off target Hoff) as [u0 Ec]. exists u0. split; [exact Ec|].
    rewrite Ec, takeZ_cons in Hs1, Hs2 by lia.
    set (cur2 := dropZ (off + 1) target) in *. set (m := takeZ (k - 1) cur2) in *.
    assert (Hm : Z.of_nat (length (u0 :: m)) = k).
    { cbn [length]. rewrite Nat2Z.inj_succ, <- lenZ_length. unfold m, cur2.
      rewrite lenZ_takeZ; [lia|]. rewrite lenZ_dropZ by lia. lia. }
    destruct (Z.ltb_spec (off + k) size) as [Hmore|Hnomore].
    - destruct (dropZ_cons (off + k) target ltac:(fold size; lia)) as [uk Ea]. exists uk. split; [exact Ea|].
      assert (Hw : takeZ k cur2 = m ++ [uk]).
      { replace k with (k - 1 + 1) at 1 by lia. apply takeZ_snoc with (dropZ (off + k + 1) target); [lia|].
        unfold cur2. rewrite dropZ_dropZ by lia. now replace (off + 1 + (k - 1)) with (off + k) by lia. }
      pose proof (roll_mod u0 m uk s1 s2 Hs1 Hs2) as R. rewrite Hm in R.
      unfold Regs. rewrite Hw. split; [lia|]. split; [f_equal; lia|exact R].
    - pose proof (shrink_mod u0 m s1 s2 Hs1 Hs2) as R. rewrite Hm in R.
      unfold Regs. split; [lia|]. split; [f_equal; lia|exact R].
  Qed.

End Window.

Section Search.
  Variable H : list Z -> list Z.
  Variable seed : Z.
  Variable chunk : Z.
  Variable h : sum_head.
  Variable sums : list sumbuf.
  Variable target : list Z.
  Let size := lenZ target.
  Variable tt : tagtable.
  Variable end_ : Z.
  Hypothesis Hblen : 1 <= h_blen h.

  Lemma body_tail_regs matched off k s1 s2 lastm cur ahead lmc rt r :
    body_tail chunk h target end_ matched off k s1 s2 lastm cur ahead lmc rt = r ->
    0 <= off < size -> cur = dropZ off target -> Regs h target off k s1 s2 cur ahead ->
    match r with
    | Next st' => RInv h target st' /\ st_off st' = off + 1
    | Crashed _ => False
    | Done _ _ _ => True
    end.
  Proof.
    intros <- Hoff Hcur HR. unfold body_tail. destruct (matched && (end_ <=? off)); [exact I|].
    destruct (roll_regs h target Hblen off k s1 s2 cur ahead Hoff Hcur HR) as (u0 & -> & Hroll).
    destruct (off + k <? lenZ target); [destruct Hroll as (uk & -> & Hroll)|];
      destruct ((h_blen h + chunk <=? Z.max (off - lastm) 0) && (chunk <? end_ - off));
      destruct (end_ <=? off + 1); try exact I; (split; [exact Hroll|reflexivity]).
  Qed.

  (** C16's [rolling_invariant] *)
  Lemma body_regs st :
    SInv H seed chunk h sums target st -> RInv h target st ->
    match body H seed chunk h tt size end_ st with
    | Next st' => RInv h target st' /\ st_off st < st_off st'
    | Crashed _ => False
    | Done _ _ _ => True
    end.
  Proof.
    intros (Hlm & Hoff & Hcur & _) HR. unfold size. rewrite body_unfold.
    destruct (probe H seed h target tt st) as [i|] eqn:Hp;
      remember (body_tail _ _ _ _ _ _ _ _ _ _ _ _ _ _) as r eqn:T; symmetry in T.
    - (* behind a match the registers are read afresh *)
      apply scan_sound in Hp; [|discriminate]. destruct Hp as (_ & Hl).
      set (off := st_off st) in *. set (len := block_len h i) in *.
      assert (Hc : dropZ (len - 1) (st_cur st) = dropZ (off + len - 1) target)
        by (rewrite Hcur, dropZ_dropZ by lia; f_equal; lia).
      apply body_tail_regs in T; [|lia|exact Hc|apply (read_regs h target Hblen); [fold size; lia|exact Hc]].
      destruct r as [|st'|c]; [exact I| |exact T]. destruct T as [HR' ->]. split; [exact HR'|lia].
    - apply body_tail_regs in T; [|lia|exact Hcur|exact HR].
      destruct r as [|st'|c]; [exact I| |exact T]. destruct T as [HR' ->]. split; [exact HR'|lia].
  Qed.

  (** An invariant [P] on top of [SInv] and [RInv] that every run of the body
      hands on, and whose exits satisfy [Q]: the loop ends, with [Q], once the
      fuel exceeds the bytes still to scan (the offset grows in every run). *)
  Lemma search_rule (P : sstate -> Prop) (Q : Z -> list Z -> list token -> Prop) :
    (forall st, P st -> SInv H seed chunk h sums target st /\ RInv h target st) ->
    (forall st, P st -> match body H seed chunk h tt size end_ st with
                        | Done lm lc rt => Q lm lc rt
                        | Next st' => P st'
                        | Crashed _ => True
                        end) ->
    forall fuel st, P st -> (Z.to_nat (size - st_off st) < fuel)%nat ->
    exists lm lc rt, search H seed chunk h tt size end_ fuel st = inl (Some (lm, lc, rt)) /\ Q lm lc rt.
  Proof.
    intros Hinv Hstep. induction fuel as [|fuel IH]; intros st HP Hf; [lia|].
    destruct (Hinv st HP) as [HS HR]. specialize (Hstep st HP). pose proof (body_regs st HS HR) as Hg.
    cbn [search]. destruct (body _ _ _ _ _ _ _ _) as [lm lc rt|st'|c]; [eauto| |destruct Hg].
    apply IH; [exact Hstep|]. destruct Hg as [_ Hlt], HS as (_ & Ho & _). lia.
  Qed.

  Lemma body_step st :
    1 <= chunk -> tt_sound sums tt -> end_ <= size ->
    SInv H seed chunk h sums target st -> RInv h target st ->
    match body H seed chunk h tt size end_ st with
    | Done lm lc rt =>
        (exists off', end_ <= off' /\ moved H seed chunk h target tt st off' lm lc rt) /\
        rcov H seed chunk h sums target rt lm /\ lc = dropZ lm target
    | Next st' =>
        st_off st' < end_ /\
        moved H seed chunk h target tt st (st_off st') (st_lastm st') (st_lmc st') (st_rtoks st') /\
        SInv H seed chunk h sums target st' /\ RInv h target st'
    | Crashed _ => False
    end.
  Proof.
    intros Hchunk Htt Hend HS HR.
    pose proof (body_sound H seed chunk Hchunk h sums target tt end_ Htt Hend Hblen st HS) as Bs.
    pose proof (body_moves H seed chunk Hchunk h target tt end_ Hblen st _ eq_refl) as Bp.
    pose proof (body_regs st HS HR) as Br. fold size in Bs, Bp.
    destruct (body H seed chunk h tt size end_ st); [auto| |exact Br]. destruct Bp, Br. auto.
  Qed.

  Lemma probe_window st : RInv h target st ->
    let l := Z.min (h_blen h) (size - st_off st) in
    let w := takeZ l (st_cur st) in
    probe H seed h target tt st = scan H seed h (tt_find tt (tag (checksum1 w))) (checksum1 w) l (st_cur st) None.
  Proof.
    intros (Hk & _ & Hs1 & Hs2) l w. rewrite Hk in Hs1, Hs2.
    destruct (checksum1_halves w) as (E1 & E2 & E).
    (* the registers are the two halves of the window's checksum *)
    assert (Ew : st_s1 st mod 65536 + st_s2 st mod 65536 * 65536 = checksum1 w)
      by now rewrite E, E1, E2, Hs1, Hs2, !Zmod_mod.
    unfold probe, tag. now rewrite Ew, E1, E2, Hs1, Hs2.
  Qed.

  Lemma probe_sound st i : tt_sound sums tt -> RInv h target st -> probe H seed h target tt st = Some i ->
    let l := Z.min (h_blen h) (size - st_off st) in
    let w := takeZ l (st_cur st) in
    0 <= i /\ nth_error sums (Z.to_nat i) = Some (checksum1 w, strong H seed h w) /\ block_len h i = l.
  Proof.
    intros Htt HR E l w. rewrite (probe_window st HR) in E.
    apply scan_sound in E; [|discriminate]. destruct E as (Hin & Hl). destruct (Htt _ _ _ _ Hin). auto.
  Qed.

  Lemma probe_complete st i : tt_complete sums tt -> RInv h target st -> 0 <= i ->
    let w := takeZ (Z.min (h_blen h) (size - st_off st)) (st_cur st) in
    nth_error sums (Z.to_nat i) = Some (checksum1 w, strong H seed h w) ->
    block_len h i = Z.min (h_blen h) (size - st_off st) ->
    exists j, probe H seed h target tt st = Some j.
  Proof.
    intros Httc HR Hi w Hnth Hlen. rewrite (probe_window st HR).
    apply scan_complete with i; [discriminate| |now symmetry].
    apply Httc; [apply tag_nonneg|exact Hi|exact Hnth|reflexivity].
  Qed.

End Search.

Section SendOne.
  Variable H : list Z -> list Z.
  Variable seed : Z.
  Variable chunk : Z.
  Hypothesis Hchunk : 1 <= chunk.
  Variable h : sum_head.
  Variable sums : list sumbuf.
  Variable target : list Z.

  Let size := lenZ target.
  Let tt := tt_build sums 0 (PositiveMap.empty (list cand)).
  Let end_ := size + 1 - block_len h (h_count h - 1).

  (** Without a checksum list, or for an empty file, the whole file goes out
      as literals (sendFile). *)
  Lemma send_one_whole : sums = [] \/ size = 0 ->
    send_one H seed chunk h sums target = send_whole H seed chunk target.
  Proof.
    unfold send_one. fold size. intros [-> | ->]; [reflexivity|]. now destruct sums.
  Qed.

  (** The state the search starts from (SendFiles before hashSearch). *)
  Definition search_start : sstate :=
    let k := Z.min (h_blen h) (size - 0) in
    let sum := checksum1 (takeZ k target) in
    mkS 0 k (sum_lo sum) (sum_hi sum) 0 target (dropZ k target) target [].

  (** Otherwise [send_one] is the search from [search_start], where both
      invariants hold, followed by the rest of the file as a literal.  So an
      invariant of the loop body ([search_rule]) yields a property of the
      tokens sent. *)
  Lemma send_one_search (P : sstate -> Prop) (Q : Z -> list Z -> list token -> Prop) :
    sums <> [] -> 0 < size -> 1 <= h_blen h ->
    (forall st, P st -> SInv H seed chunk h sums target st /\ RInv h target st) ->
    (SInv H seed chunk h sums target search_start -> RInv h target search_start -> P search_start) ->
    (forall st, P st -> match body H seed chunk h tt size end_ st with
                        | Done lm lc rt => Q lm lc rt
                        | Next st' => P st'
                        | Crashed _ => True
                        end) ->
    exists lm lc rt,
      send_one H seed chunk h sums target =
        SOk h (rev (emit_lit chunk (size - lm) lc rt)) (filesum H seed target) /\ Q lm lc rt.
  Proof.
    intros Hne Hsz Hblen Hinv Hstart Hstep.
    assert (HS : SInv H seed chunk h sums target search_start).
    { unfold SInv, search_start. cbn [st_off st_lastm st_cur st_lmc st_rtoks]. rewrite dropZ_0.
      repeat split; try lia. constructor. }
    assert (HR : RInv h target search_start).
    { apply (read_regs h target Hblen 0 target); [fold size; lia|now rewrite dropZ_0]. }
    destruct (search_rule H seed chunk h sums target tt end_ Hblen P Q Hinv Hstep
                (S (length target)) search_start (Hstart HS HR))
      as (lm & lc & rt & Es & HQ).
    { unfold search_start. cbn [st_off]. rewrite lenZ_length. lia. }
    exists lm, lc, rt. split; [|exact HQ].
    assert (Hcons : forall X Y : sender_result, match sums with [] => X | _ :: _ => Y end = Y)
      by (destruct sums; [contradiction|reflexivity]).
    unfold send_one. rewrite Hcons. fold size. replace (size =? 0) with false by lia.
    unfold read_chunk. unfold search_start, tt, end_, size in Es. unfold size. now rewrite Es.
  Qed.

  (** The sender always completes — no crash, no fuel exhaustion — and its
      tokens cover the file: with the received header, or, falling back to the
      whole file as literals, with the header of SumSizesSqroot. *)
  Theorem send_one_covers :
    (sums <> [] -> 1 <= h_blen h /\ 0 <= h_rem h) ->
    exists h' rt,
      send_one H seed chunk h sums target = SOk h' (rev rt) (filesum H seed target) /\
      rcov H seed chunk h sums target rt size /\
      (h' = h /\ sums <> [] \/ h' = sum_sizes_sqroot size /\ Forall is_lit rt).
  Proof.
    intros Hhead.
    assert (Hd : (sums = [] \/ size = 0) \/ sums <> [] /\ size <> 0).
    { destruct sums; [now left; left|]. destruct (Z.eq_dec size 0); [now left; right|right]. now split. }
    destruct Hd as [Hw|[Hne Hnz]].
    - exists (sum_sizes_sqroot size), (lit_chunks (length target) chunk target []).
      split; [exact (send_one_whole Hw)|]. split; [now apply whole_rcov|right].
      split; [reflexivity|apply lit_chunks_lits; constructor].
    - destruct (Hhead Hne) as [Hblen Hrem]. pose proof (lenZ_nonneg target) as Hnn.
      destruct (send_one_search
                  (fun st => SInv H seed chunk h sums target st /\ RInv h target st)
                  (fun lm lc rt => rcov H seed chunk h sums target rt lm /\ lc = dropZ lm target))
        as (lm & lc & rt & E & Hr & ->); [exact Hne|lia|exact Hblen|auto|auto| |].
      + intros st [HS HR]. pose proof (block_len_bounds h (h_count h - 1) Hblen Hrem) as [Hl _].
        pose proof (body_step H seed chunk h sums target tt end_ Hblen st Hchunk (tt_built_sound sums)
                      ltac:(unfold end_; lia) HS HR) as B.
        destruct (body _ _ _ _ _ _ _ _); [apply B| |exact I]. now destruct B as (_ & _ & B).
      + exists h, (emit_lit chunk (size - lm) (dropZ lm target) rt).
        pose proof (rcov_bounds _ _ _ _ _ _ _ _ Hr). split; [exact E|]. split; [|now left].
        replace size with (lm + (size - lm)) at 2 by lia. apply emit_lit_rcov; [exact Hchunk|exact Hr|lia|fold size; lia].
  Qed.
End SendOne.

(** The authorized_keys loader, by induction over the lines: a successful load returns, in order, the
    keys of the lines that are neither blank nor comment, and each of those lines parses.  The other
    statements of C20 need no lemma. *)
From Coq Require Import String List Bool.
From RV Require Import Model.Ssh.
Import ListNotations.

Section Keys.
  Variable key : Type.
  Variable parse_line : string -> option key.
  Variable blank : string -> bool.

  Lemma load_keys_parsed lines ks :
    load_keys key parse_line blank lines = Some ks ->
    map parse_line (filter (fun l => negb (blank l)) lines) = map Some ks.
  Proof.
    revert ks. induction lines as [|l r IH]; cbn [load_keys filter]; intros ks H.
    - now injection H as <-.
    - destruct (blank l); cbn [negb]; [exact (IH ks H)|].
      destruct (parse_line l) as [k|] eqn:P; [|discriminate].
      destruct (load_keys key parse_line blank r) as [ks'|]; [|discriminate].
      injection H as <-. cbn [map]. now rewrite P, (IH ks' eq_refl).
  Qed.
End Keys.

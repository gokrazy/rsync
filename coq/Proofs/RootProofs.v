(** Resolution in the os.Root model (Model/Root.v) stays inside the tree: [dir] is a directory of the tree at
    every step, links of any kind included, so a successful resolution ends at one, or at an entry name
    directly inside one ([resolve_inside]). *)
From Coq Require Import ZArith List Bool.
From RV Require Import Model.Bytes Model.Flist Model.Root.
Import ListNotations.
Open Scope Z_scope.

Definition is_dir_at (t : rnode) (p : list (list Z)) : Prop := exists cs, rlookup t p = Some (RDir cs).

Lemma rlookup_app t : forall p q, rlookup t (p ++ q) = match rlookup t p with Some u => rlookup u q | None => None end.
Proof.
  intros p. revert t. induction p as [|c p IH]; intros t q; [reflexivity|].
  cbn [app rlookup]. destruct t as [| |cs]; try reflexivity.
  destruct (rassoc c cs) as [u|]; [apply IH|reflexivity].
Qed.

Lemma is_dir_prefix t p c : is_dir_at t (p ++ [c]) -> is_dir_at t p.
Proof.
  intros [cs H]. rewrite rlookup_app in H. destruct (rlookup t p) as [u|] eqn:E; [|discriminate].
  cbn [rlookup] in H. destruct u as [| |cs0]; try discriminate. now exists cs0.
Qed.

Lemma resolve_inside fuel t fl : forall dir todo p,
  is_dir_at t dir -> resolve fuel t fl dir todo = inl p ->
  is_dir_at t p \/ exists d c, p = d ++ [c] /\ is_dir_at t d.
Proof.
  induction fuel as [|f IH]; intros dir todo p Hd H; [discriminate|].
  cbn [resolve] in H. destruct todo as [|c rest].
  - injection H as <-. now left.
  - destruct (list_eqb c [] || list_eqb c [dot]); [eapply IH; eauto|].
    destruct (list_eqb c dotdot).
    + destruct (rev dir) as [|x rd] eqn:R; [discriminate|].
      apply (rev_eq_app dir [x] rd) in R. rewrite R in Hd.
      eapply IH; [|exact H]. exact (is_dir_prefix _ _ _ Hd).
    + (* [Last]: the answer wherever the walk ends with [c] itself *)
      assert (Last : exists d c0, dir ++ [c] = d ++ [c0] /\ is_dir_at t d) by (exists dir, c; auto).
      pose proof Hd as [cs Hl]. rewrite Hl in H.
      destruct (rassoc c cs) as [u|] eqn:A; [destruct u as [content|target|cs']|].
      * destruct rest; [|discriminate]. injection H as <-. right. exact Last.
      * (* a link is followed, from the same [dir], unless it comes last and [fl] is off *)
        destruct rest as [|c2 rest2]; [destruct fl|]; [|injection H as <-; right; exact Last|];
          (destruct target as [|s tg]; [discriminate|]; destruct (s =? slash); [discriminate|]; exact (IH _ _ _ Hd H)).
      * eapply IH; [|exact H]. exists cs'.
        rewrite rlookup_app, Hl. cbn [rlookup]. now rewrite A.
      * destruct rest; [|discriminate]. injection H as <-. right. exact Last.
Qed.

(** an absolute link, one of the two ways out, is an error *)
Lemma absolute_link_escapes f t fl dir cs c tg rest :
  rlookup t dir = Some (RDir cs) -> rassoc c cs = Some (RLink (slash :: tg)) ->
  list_eqb c [] || list_eqb c [dot] = false -> list_eqb c dotdot = false ->
  (rest <> [] \/ fl = true) ->
  resolve (S f) t fl dir (c :: rest) = inr EEscapes.
Proof.
  intros Hl A N1 N2 Hr. cbn [resolve]. rewrite N1, N2, Hl, A.
  destruct rest as [|c2 r2]; [destruct fl|]; try reflexivity.
  destruct Hr as [Hr|Hr]; [contradiction|discriminate].
Qed.
